(* C04 -- accepted programs are well-formed; every rule violation is diagnosed.
   Statements only; proofs in Sema/WellFormed.v and Sema/AttributesProofs.v.  The model (Sema/Validate.v) mirrors the parse-time checks, the
   redefinition pass and the validators as written; numeric bounds come from Gen/NumericBounds.v (regenerated). *)
From Coq Require Import List Bool Arith ZArith.
From SliceV Require Import Gen.NumericBounds Sema.Validate Sema.WellFormed Sema.AttrTypes Gen.AttributeRules Sema.Attributes Sema.AttributesProofs.
Import ListNotations.

(* a program is accepted (no error diagnostic) exactly when it satisfies every rule of the catalogue *)
Theorem C04_accept_iff_well_formed : forall p, check p = [] <-> well_formed p.
Proof. exact accept_iff_well_formed. Qed.
(* the rules one by one: each check is silent exactly when its declarative rule holds *)
Theorem C04_names_unique : forall names, redefs [] names = [] <-> NoDup names.
Proof. exact names_unique_iff. Qed.
Theorem C04_redefinition_pass : forall p, redefinition_errors p = [] <-> names_ok p.
Proof. exact redefinition_errors_iff. Qed.
Theorem C04_tags_unique_and_optional : forall ms, validate_members ms = [] <-> members_ok ms.
Proof. exact validate_members_iff. Qed.
Theorem C04_compact_structs : forall s, validate_struct s = [] <-> struct_ok s.
Proof. exact validate_struct_iff. Qed.
Theorem C04_enums : forall e, validate_enum e = [] <-> enum_ok e.
Proof. exact validate_enum_iff. Qed.
Theorem C04_stream_last : forall ms, validate_parameters ms = [] <-> stream_ok ms.
Proof. exact validate_parameters_iff. Qed.
Theorem C04_inherited_operations : forall p i, shadow_errors p i = [] <-> forall o, In o (i_ops i) -> ~ In (o_name o) (inherited_op_names p i).
Proof. exact shadow_errors_iff. Qed.
Theorem C04_syntax_rules : forall p, parse_errors p = [] <-> syntax_ok p.
Proof. exact parse_errors_iff. Qed.
(* dictionary keys: what the check accepts is a legal key; a legal key is accepted when the fuel covers its nesting depth *)
Theorem C04_key_check_sound : forall p fuel t, key_error p fuel t = None -> legal_key p t.
Proof. exact key_error_sound. Qed.
Theorem C04_key_check_complete : forall p n t, legal_key_depth p n t -> forall fuel, (n <= fuel)%nat -> key_error p fuel t = None.
Proof. exact key_error_complete. Qed.
Theorem C04_every_dictionary_checked : forall p t, dict_errors p t = [] <-> forall k, In k (dict_keys t) -> key_error p (S (length p)) k = None.
Proof. exact dict_errors_iff. Qed.
(* gating: an earlier phase that reports anything hides the later ones *)
Theorem C04_accepted_iff_all_phases_silent : forall p,
  check p = [] <-> parse_errors p = [] /\ redefinition_errors p = [] /\ validator_errors p = [].
Proof.
  intros p. unfold check. destruct (parse_errors p) as [|c1 l1] eqn:E1.
  - destruct (redefinition_errors p) as [|c2 l2] eqn:E2.
    + tauto.
    + split; [intros H; discriminate H|]. intros (_ & H & _). discriminate H.
  - split; [intros H; discriminate H|]. intros (H & _). discriminate H.
Qed.

(* attributes only where legal, well-formed and not repeated (model: Sema/Attributes.v).  The table of built-in attributes that
   tools/regen_attrs.py extracts from grammar/attributes/*.rs on every run -- directive, repeatability, argument count range,
   accepted arguments, legal places -- is the one the model fixes *)
Theorem C04_attribute_table_as_in_the_sources : attribute_rules = the_rules.
Proof. exact regenerated_table_is_expected. Qed.
(* no attribute diagnostic is reported exactly when every attribute is a built-in one used with an accepted number of accepted
   arguments or carries a scope prefix, stands where it is legal (oneway only on operations that return nothing), and no
   non-repeatable attribute occurs twice on one element *)
Theorem C04_attributes_accepted_iff : forall es, check_attributes es = [] <->
  Forall (fun e => Forall wellformed (el_attrs e) /\ not_repeated (el_attrs e) /\ Forall (legal e) (el_attrs e)) es.
Proof. exact attributes_accepted_iff. Qed.
Theorem C04_unknown_attribute_iff : forall es, In E024 (check_attributes es) <->
  exists e a, In e es /\ In a (el_attrs e) /\ rule_of a = None /\ unscoped (ad_dir a) = true.
Proof. exact unknown_iff. Qed.
Theorem C04_attribute_placement : forall e a, place_codes e a = [] <-> legal e a.
Proof. exact place_codes_nil. Qed.
Theorem C04_attribute_arguments : forall a, parse_codes a = [] <-> wellformed a.
Proof. exact parse_codes_nil. Qed.
Theorem C04_attribute_repeats : forall l, repeat_codes [] l = [] <-> not_repeated l.
Proof. exact repeat_codes_nil0. Qed.

(* non-vacuity: compact struct with a tagged optional field and a duplicate tag *)
Example C04_instance :
  check [DS 1 {| s_name := 1; s_compact := true; s_fields := [ {| m_name := 2; m_tag := Some 1%Z; m_ty := RT true (RPrim 5); m_stream := false |};
                                                              {| m_name := 3; m_tag := Some 1%Z; m_ty := RT false (RPrim 5); m_stream := false |} ] |}]
  = [15; 15; 16; 12]
  /\ check [DS 1 {| s_name := 1; s_compact := false; s_fields := [ {| m_name := 2; m_tag := Some 2147483647%Z; m_ty := RT true (RPrim 5); m_stream := false |} ] |}] = [].
Proof. vm_compute. split; reflexivity. Qed.
