(* C18 -- a failing generator is reported, never fatal, and never half-trusted.  Statements only; proofs in Driver/MainProofs.v,
   Codec/ReplyProofs.v and Codec/PrefixProofs.v (models: Driver/Main.v, Codec/Reply.v). *)
From Coq Require Import List Bool NArith ZArith Arith.
From SliceV Require Import Base.Bytes Base.Utf8 Codec.Wire Codec.Reply Codec.ReplyProofs Codec.PrefixProofs Sema.Lints Driver.Main Driver.MainProofs.
Import ListNotations.
Local Open Scope nat_scope.

(* every generator is handled on its own, in the order given: replacing the i-th generator by any other behaviour leaves the
   result of every other generator unchanged -- the others still run and are honoured *)
Theorem C18_generators_independent : forall c, generation_runs c = true -> gen_results c = map (run_generator (rc_fs c)) (rc_generators c).
Proof. exact generators_independent. Qed.
Theorem C18_other_generators_unaffected : forall fs gs i b j, j <> i ->
  nth_error (map (run_generator fs) (firstn i gs ++ b :: skipn (S i) gs)) j = nth_error (map (run_generator fs) gs) j \/ length gs <= i.
Proof. exact other_generators_unaffected. Qed.
(* whatever it did -- could not be started, went away before reading, wrote to stderr, exited non-zero, was killed, replied with
   something undecodable: exactly one error for that generator, no file written, nothing printed; hence a non-zero exit status *)
Theorem C18_failing_generator_reported : forall fs b r, r = run_generator fs b -> gr_error r <> None ->
  gr_files r = [] /\ gr_messages r = [] /\ gen_errors r = 1.
Proof. exact failing_generator_reported. Qed.
Theorem C18_failure_gives_nonzero_exit : forall c, exit_status c <> 0 <->
  has_errors (rc_diags c) = true \/ (generation_runs c = true /\ exists r, In r (gen_results c) /\ gen_errors r <> 0).
Proof. exact exit_status_iff. Qed.
(* files are written only from a reply that decoded completely, from a generator that started, read the request, kept stderr
   empty and exited with status 0 -- and then exactly the decoded files, in order *)
Theorem C18_files_only_from_decoded_reply : forall fs b, gr_files (run_generator fs b) <> [] ->
  exists out files diags rest, b = BRuns true false (Some 0%Z) out /\ dec_reply out = DOk (files, diags) rest /\
    gr_files (run_generator fs b) = map (fun f => (f, fs f)) files.
Proof. exact files_only_from_decoded_reply. Qed.
(* the reply decoder is total and what it hands over is well-formed (valid UTF-8 paths and contents, levels 0..2) *)
Theorem C18_reply_total : (forall bs, dec_reply bs <> DErr EFuel) /\ forall bs v r, dec_reply bs = DOk v r -> exists pre, bs = pre ++ r /\ pre <> [].
Proof. exact reply_total_prefix. Qed.
Theorem C18_reply_wellformed : forall bs fs ds r, dec_reply bs = DOk (fs, ds) r ->
  Forall (fun f => utf8_valid (gf_path f) = true /\ utf8_valid (gf_contents f) = true) fs /\
  Forall (fun d => (gd_level d <= 2)%N /\ utf8_valid (gd_message d) = true) ds.
Proof. exact reply_files_wellformed. Qed.
(* a reply cut anywhere inside the part the decoder reads (exit status 0, nothing on stderr) is reported for that generator as
   a decoding error and no file of it is written; what follows the consumed part does not matter *)
Theorem C18_truncated_reply_rejected : forall bs v r, dec_reply bs = DOk v r ->
  forall k, k < length bs - length r -> exists e, dec_reply (firstn k bs) = DErr e /\ e <> EFuel.
Proof. exact truncated_reply_rejected. Qed.
Theorem C18_truncated_reply_reported : forall fs out v r k, dec_reply out = DOk v r -> k < length out - length r ->
  exists e, run_generator fs (BRuns true false (Some 0%Z) (firstn k out)) = failed (GeDecode e) /\ e <> EFuel.
Proof. exact truncated_reply_reported. Qed.
Theorem C18_reply_independent_of_trailing_bytes : forall bs v r x, dec_reply bs = DOk v r -> dec_reply (bs ++ x) = DOk v (r ++ x).
Proof. exact reply_ext. Qed.
