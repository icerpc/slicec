(* C09 -- reported locations point at the right source text.  Statements only; proofs in Syntax/ParserProofs.v,
   ParserProofs2.v and ParserProofs3.v. *)
From Coq Require Import List NArith ZArith Bool.
From SliceV Require Import Syntax.Tokens Syntax.Lexer Syntax.Parser Syntax.ParserProofs Syntax.ParserProofs2 Syntax.ParserProofs3.
Import ListNotations.

(* `written t pts` holds exactly when pts spell t AND every location inside t (the reference itself, nested references, scoped
   names) is the extent start-of-first-token .. end-of-last-token of the tokens it is spelled by; the parser returns that t
   whatever the token locations are: spans of type references and of the identifiers in them are tight at every nesting level *)
Theorem C09_type_reference_spans_exact : forall t pts, written t pts -> forall fuel rest le last dg,
  (length pts < fuel)%nat -> ~ next_is TkQuestion rest -> ~ next_is TkDColon rest ->
  p_typeref fuel (mkps (pts ++ rest) le last dg) = POk_ t (mkps rest le (last_end pts last) dg).
Proof. exact typeref_written. Qed.
(* the same for a whole file (module, struct definitions, fields with tags, attributes with arguments, attributed types): the
   relations `written_file`, `written_struct`, `written_member`, `written_attr`, `writtenA` fix the location of every element
   -- module, definition (from `compact`/`struct` to the name), field (from the tag or the name to the end of its type), tag value,
   identifier, attribute (directive .. closing parenthesis), type reference -- to the extent of its own tokens, and the parser
   returns exactly that file for arbitrary token locations *)
Theorem C09_file_spans_exact : forall f pts, written_file f pts -> forall start,
  p_file (S (S (length pts))) (mkps pts None start []) = POk_ f (mkps [] None (last_end pts start) []).
Proof. exact file_written. Qed.
(* and for files with definitions of every kind (`written_enum`, `written_enumerator`, `written_iface`, `written_operation`,
   `written_return`, `written_custom`, `written_alias` in Syntax/ParserProofs3.v): an enumeration or interface runs from its first
   keyword to its name, an enumerator from its name to the end of its fields or value, an explicit value from the minus sign or
   the literal to the literal's end, an operation from `idempotent` or its name to the closing parenthesis or the end of the return
   type, a single return member over tag, stream marker and type, a custom type or alias from its keyword to its name *)
Theorem C09_any_file_spans_exact : forall f pts, written_file_all f pts -> forall start,
  p_file (S (S (length pts))) (mkps pts None start []) = POk_ f (mkps [] None (last_end pts start) []).
Proof. exact file_written_all. Qed.
(* rows and columns count characters from the start location: a line feed starts a new row at column 1 (CR is one more
   column on its line), any other character -- ASCII, tab or multi-byte -- advances the column by exactly one *)
Theorem C09_columns_count_characters : forall l s, forallb (fun c => negb (c =? 10)%N) s = true ->
  adv_all l s = mkloc (l_row l) (l_col l + length s).
Proof. exact adv_all_line. Qed.
Theorem C09_line_feed_starts_a_row : forall l, adv l 10%N = mkloc (S (l_row l)) 1.
Proof. exact adv_newline. Qed.

Example C09_example : adv_all (mkloc 1 1) [9; 252; 26085; 10; 32]%N = mkloc 2 2.
Proof. vm_compute. reflexivity. Qed.
