(* C03 -- type references bind to the entity the scoping rules designate.
   Statements only; proofs in Sema/Lookup.v, Sema/ResolveProofs.v and Sema/ScopedProofs.v. *)
From Coq Require Import List Bool Arith Permutation.
From SliceV Require Import Sema.Scoped Sema.ScopedProofs Sema.Lookup Sema.Resolve Sema.ResolveProofs.
Import ListNotations.

(* the lookup walks outwards: scope::id, then one segment fewer, ..., finally the global scope;
   a name starting with '::' is looked up globally only *)
Theorem C03_lookup_is_outward_scope_search : forall V (t : table V) scope global id,
  find V t scope global id = find_spec V t scope global id.
Proof. exact find_eq_spec. Qed.
(* a reference that designates a non-alias is bound to exactly that entity iff its kind fits the position *)
Theorem C03_binds_the_designated_entity : forall t x ms r e, designates t ms r = Some e -> is_alias (e_kind e) = false ->
  resolve t x ms r = if kind_ok x (e_kind e) then Bound (e_id e) [] else ErrMismatch.
Proof. exact resolve_direct. Qed.
(* aliases are transparent: bound to the final non-alias target, with the attributes written on each alias's type in chain order *)
Theorem C03_aliases_are_transparent : forall t x ms r e via id k a, designates t ms r = Some e -> is_alias (e_kind e) = true ->
  leads t e via (id, k, a) -> NoDup (e_mscoped e :: via) -> length via <= length t ->
  resolve t x ms r = if kind_ok x k then Bound id a else ErrMismatch.
Proof. exact resolve_alias_transparent. Qed.
(* a reference that designates nothing, or something of the wrong kind, is an error, never a silent binding *)
Theorem C03_missing_is_an_error : forall t x ms r, designates t ms r = None -> resolve t x ms r = ErrMissing.
Proof. exact resolve_missing. Qed.
Theorem C03_never_binds_a_wrong_kind : forall t x ms r id a, resolve t x ms r = Bound id a ->
  (exists k, (k = KAnon \/ k = KPrim \/ True) /\ kind_ok x k = true) \/ exists e, In e (map snd t) /\ e_id e = id /\ kind_ok x (e_kind e) = true.
Proof. exact resolve_never_wrong_kind. Qed.
Theorem C03_resolution_terminates : forall t x ms r, resolve t x ms r <> RFuel.
Proof. exact resolve_terminates. Qed.
(* every definition can be retrieved by its fully scoped name when keys are unique; and then the order in which
   files were added to the table cannot influence a lookup (used by C15) *)
Theorem C03_find_element_by_scoped_name : forall V (t : table V) k v, NoDup (map fst t) -> In (k, v) t -> get V t k = Some v.
Proof. exact get_In. Qed.
Theorem C03_lookup_order_independent : forall V (t t' : table V) k, NoDup (map fst t) -> Permutation t t' -> get V t k = get V t' k.
Proof. exact get_perm. Qed.

(* non-vacuity: module 1 { struct 2; alias 3 = [5,6] 2; alias 4 = [7] 3 }: a reference to 4 binds struct id 70 with attributes 7,5,6 *)
Example C03_instance :
  let t := [([1;2], {| e_kind := KStruct; e_id := 70; e_mscoped := [1;2]; e_under := None |});
            ([1;3], {| e_kind := KAlias; e_id := 80; e_mscoped := [1;3]; e_under := Some (UNamed {| tr_global := false; tr_name := [2]; tr_attrs := [5;6] |} [1]) |});
            ([1;4], {| e_kind := KAlias; e_id := 90; e_mscoped := [1;4]; e_under := Some (UNamed {| tr_global := true; tr_name := [1;3]; tr_attrs := [7] |} [1]) |})] in
  resolve t XType [1] {| tr_global := false; tr_name := [4]; tr_attrs := [] |} = Bound 70 [7;5;6]
  /\ resolve t XIface [1] {| tr_global := false; tr_name := [4]; tr_attrs := [] |} = ErrMismatch.
Proof. vm_compute. split; reflexivity. Qed.

(* every definition, field, enumerator and operation can be retrieved from the AST by its fully scoped name: in the model of the
   lookup table over several files (Sema/Scoped.v), once the redefinition pass is silent every entity entered in the table is what
   its own scoped identifier leads to, whatever the order of the files -- parameters and return members too, where no operation
   uses one name for both (they share an AST scope; Ast::find_node documents that these may not be unique) *)
Theorem C03_entities_retrievable_by_scoped_name : forall fs f k,
  redef_report fs = [] -> Forall ops_ok (all_defs fs) -> In f fs -> In k (entity_keys f) ->
  exists p, sc_lookup k (sc_table fs) = Some (ScEntity (sf_id f) p).
Proof. exact entities_retrievable. Qed.
