(* C10 -- Slice encoding round-trips and matches the wire format.
   Statements only; the proofs are in Codec/*Proofs.v and Base/Utf8Proofs.v.
   The width arms, masks, shifts and 62-bit limits the model is built from are regenerated
   from slice-codec/src/{encoding,decoding,lib}.rs (Gen/VarintArms.v) on every run. *)
From Coq Require Import List NArith ZArith Bool.
From SliceV Require Import Base.Bytes Base.Utf8 Base.Utf8Proofs Gen.VarintArms Codec.Wire Codec.WireProofs Codec.CollProofs Codec.Typed Codec.TypedProofs.
Import ListNotations.
Open Scope N_scope.

(* fixed width: decode (encode v) = v, consuming exactly the bytes written *)
Theorem C10_uint_roundtrip : forall n v rest, v < 256 ^ N.of_nat n ->
  dec_uint n (enc_uint n v ++ rest) = DOk v rest.
Proof. exact uint_roundtrip. Qed.
Theorem C10_int_roundtrip : forall n z rest, (0 < n)%nat ->
  (- 2 ^ (8 * Z.of_nat n - 1) <= z < 2 ^ (8 * Z.of_nat n - 1))%Z ->
  dec_int n (enc_int n z ++ rest) = DOk z rest.
Proof. exact int_roundtrip. Qed.
Theorem C10_bool_roundtrip : forall b rest, dec_bool (enc_bool b ++ rest) = DOk b rest.
Proof. exact bool_roundtrip. Qed.
(* little-endian, two's complement: the bytes, read as a base-256 little-endian numeral, are z mod 2^(8n) *)
Theorem C10_fixed_is_LE_twos_complement : forall n z,
  of_le (enc_int n z) = Z.to_N (z mod 2 ^ (8 * Z.of_nat n)) /\ length (enc_int n z) = n.
Proof. exact fixed_is_LE_twos_complement. Qed.
Theorem C10_fixed_is_LE : forall n v, v < 256 ^ N.of_nat n ->
  of_le (enc_uint n v) = v /\ length (enc_uint n v) = n.
Proof. exact fixed_is_LE. Qed.

(* variable width *)
Theorem C10_varuint_roundtrip : forall v rest, v < 2 ^ 62 ->
  exists bs, enc_varuint v = Some bs /\ dec_varuint (bs ++ rest) = DOk v rest.
Proof. exact varuint_roundtrip. Qed.
Theorem C10_varint_roundtrip : forall z rest, (- 2 ^ 61 <= z < 2 ^ 61)%Z ->
  exists bs, enc_varint z = Some bs /\ dec_varint (bs ++ rest) = DOk z rest.
Proof. exact varint_roundtrip. Qed.
Theorem C10_varuint_refuses_out_of_62 : forall v, 2 ^ 62 <= v -> enc_varuint v = None.
Proof. exact varuint_refuses. Qed.
Theorem C10_varint_refuses_out_of_62 : forall z, (z < - 2 ^ 61 \/ 2 ^ 61 <= z)%Z -> enc_varint z = None.
Proof. exact varint_refuses. Qed.
Theorem C10_varuint_width_in_1248 : forall v bs, enc_varuint v = Some bs ->
  (length bs = 1 \/ length bs = 2 \/ length bs = 4 \/ length bs = 8)%nat.
Proof. exact varuint_length. Qed.
Theorem C10_varint_width_in_1248 : forall z bs, enc_varint z = Some bs ->
  (length bs = 1 \/ length bs = 2 \/ length bs = 4 \/ length bs = 8)%nat.
Proof. exact varint_length. Qed.
(* shortest of 1, 2, 4, 8 bytes that holds the value shifted left by two (with its code bits) *)
Theorem C10_varuint_shortest : forall v bs, enc_varuint v = Some bs ->
  forall m, (m = 1 \/ m = 2 \/ m = 4 \/ m = 8)%nat -> 4 * v + 3 < 256 ^ N.of_nat m -> (length bs <= m)%nat.
Proof. exact varuint_shortest. Qed.
Theorem C10_varint_shortest : forall z bs, enc_varint z = Some bs ->
  forall m, (m = 1 \/ m = 2 \/ m = 4 \/ m = 8)%nat ->
  (- 2 ^ (8 * Z.of_nat m - 1) <= 4 * z /\ 4 * z + 3 < 2 ^ (8 * Z.of_nat m - 1))%Z -> (length bs <= m)%nat.
Proof. exact varint_shortest. Qed.
(* the length code sits in the two low bits of the first byte *)
Theorem C10_varuint_low_bits_code : forall v b bs, enc_varuint v = Some (b :: bs) ->
  b mod 4 = code_of_width (S (length bs)).
Proof. exact varuint_low_bits. Qed.

(* strings: size prefix + UTF-8; any sequence of Unicode scalar values *)
Theorem C10_string_roundtrip : forall s rest, utf8_valid s = true -> N.of_nat (length s) < 2 ^ 62 ->
  exists bs, enc_str s = Some bs /\ dec_str (bs ++ rest) = DOk s rest.
Proof. exact str_roundtrip. Qed.
Theorem C10_unicode_is_valid_utf8 : forall cps, Forall (fun c => is_scalar c = true) cps ->
  utf8_valid (utf8_encode cps) = true /\ utf8_decode (utf8_encode cps) = Some cps.
Proof. intros cps H. split; [exact (utf8_encode_valid cps H)|exact (utf8_decode_encode cps H)]. Qed.

(* sequences and dictionaries, generic in the element codec, hence closed under nesting *)
Theorem C10_seq_roundtrip : forall (A : Type) (enc_e : A -> option (list byte)) (dec_e : list byte -> dres A) (P : A -> Prop),
  (forall x rest, P x -> exists b, enc_e x = Some b /\ dec_e (b ++ rest) = DOk x rest) ->
  (forall x b, enc_e x = Some b -> b <> []) ->
  forall l rest, Forall P l -> N.of_nat (length l) < 2 ^ 62 ->
  exists bs, enc_seq enc_e l = Some bs /\ dec_seq dec_e (bs ++ rest) = DOk l rest.
Proof. exact @seq_roundtrip. Qed.
Theorem C10_dict_roundtrip : forall (K V : Type) (keq : K -> K -> bool)
  (enc_k : K -> option (list byte)) (dec_k : list byte -> dres K)
  (enc_v : V -> option (list byte)) (dec_v : list byte -> dres V) (PK : K -> Prop) (PV : V -> Prop),
  (forall a b, PK a -> PK b -> keq a b = true -> a = b) ->
  (forall x rest, PK x -> exists b, enc_k x = Some b /\ dec_k (b ++ rest) = DOk x rest) ->
  (forall x rest, PV x -> exists b, enc_v x = Some b /\ dec_v (b ++ rest) = DOk x rest) ->
  (forall x b, enc_k x = Some b -> b <> []) ->
  forall l rest, Forall (fun kv => PK (fst kv) /\ PV (snd kv)) l -> NoDup (map fst l) -> N.of_nat (length l) < 2 ^ 62 ->
  exists bs, enc_dict enc_k enc_v l = Some bs /\ dec_dict keq dec_k dec_v (bs ++ rest) = DOk l rest.
Proof. exact @dict_roundtrip. Qed.

(* every value of every supported type, nested to any depth (induction on the type) *)
Theorem C10_typed_roundtrip : forall t v rest, wf_val t v ->
  exists bs, enc_val t v = Some bs /\ bs <> [] /\ dec_val t (bs ++ rest) = DOk v rest.
Proof. exact typed_roundtrip. Qed.

(* non-vacuity: the hypotheses are met by concrete values, and nesting works by instantiation *)
Example C10_nested_instance :
  let enc_u32 := fun v => Some (enc_uint 4 v) in
  exists bs, enc_seq (enc_seq enc_u32) [[1; 2]; []; [4294967295]] = Some bs /\
             dec_seq (dec_seq (dec_uint 4)) (bs ++ [7]) = DOk [[1; 2]; []; [4294967295]] [7].
Proof. cbv zeta. eexists. split; vm_compute; reflexivity. Qed.
Example C10_varint_instance : enc_varint (-8193) = Some [254; 127; 255; 255] /\ enc_varuint 16383 = Some [253; 255]
  /\ enc_varuint (2^62 - 1) = Some [255;255;255;255;255;255;255;255] /\ enc_varint (- 2^61) = Some [3;0;0;0;0;0;0;128].
Proof. vm_compute. repeat split. Qed.
