(* C11 -- decoding untrusted bytes fails cleanly: no crash, no over-read.
   Statements only; proofs in Codec/WireProofs.v, CollProofs.v, DecodeProofs.v, ReplyProofs.v, PrefixProofs.v. *)
From Coq Require Import List NArith ZArith Bool.
From SliceV Require Import Base.Bytes Base.Utf8 Codec.Wire Codec.WireProofs Codec.CollProofs Codec.Typed Codec.TypedProofs Codec.DecodeProofs Codec.Reply Codec.ReplyProofs Codec.PrefixProofs.
Import ListNotations.
Open Scope N_scope.

(* for every byte string and every decodable type (nested to any depth): the decoder is total (the model's
   out-of-fuel artefact is never produced, so `for _ in 0..length` ends within the input) and a success has
   consumed a non-empty prefix and nothing else *)
Theorem C11_total_and_prefix : forall t, wf_ty t ->
  (forall bs v r, dec_val t bs = DOk v r -> exists pre, bs = pre ++ r /\ pre <> []) /\
  (forall bs, dec_val t bs <> DErr EFuel).
Proof. exact dec_val_total_prefix. Qed.
(* never accepts an out-of-range bool, invalid UTF-8 or duplicate keys *)
Theorem C11_bool_strict : forall b rest v r, dec_bool (b :: rest) = DOk v r -> (b = 0 \/ b = 1) /\ r = rest.
Proof. exact bool_strict. Qed.
Theorem C11_accepts_only_values : forall t bs v r, dec_val t bs = DOk v r -> accepted t v.
Proof. exact dec_val_strict. Qed.
Theorem C11_varint_range_strict : forall lo hi bs z r, dec_varint_in lo hi bs = DOk z r -> (lo <= z <= hi)%Z.
Proof. exact varint_range_strict. Qed.
Theorem C11_varuint_range_strict : forall mx bs v r, dec_varuint_max mx bs = DOk v r -> v <= mx.
Proof. exact varuint_range_strict. Qed.
Theorem C11_dict_keys_unique : forall (K V : Type) (keq : K -> K -> bool) (dk : list byte -> dres K) (dv : list byte -> dres V),
  (forall a, keq a a = true) -> forall bs l rest, dec_dict keq dk dv bs = DOk l rest -> NoDup (map fst l).
Proof. intros K V keq dk dv H. exact (dict_keys_unique keq dk dv H). Qed.
(* cost is governed by the length of the input, not by announced sizes *)
Theorem C11_seq_iterations_bounded : forall (A : Type) (d : list byte -> dres A),
  (forall bs v r, d bs = DOk v r -> exists pre, bs = pre ++ r /\ pre <> []) -> (forall bs, d bs <> DErr EFuel) ->
  forall bs l r, dec_seq d bs = DOk l r -> (length l < length bs)%nat.
Proof. exact @dec_seq_length_bound. Qed.
Theorem C11_seq_reservation_bounded : forall bs n, seq_reservation bs = Some n -> n <= N.of_nat (length bs).
Proof. exact seq_reservation_bounded. Qed.
Theorem C11_str_reservation_bounded : forall bs n, str_reservation bs = Some n -> n <= N.of_nat (length bs).
Proof. exact str_reservation_bounded. Qed.
Theorem C11_skip_tagged_fields_total : forall bs, skip_tagged_fields bs <> DErr EFuel /\
  forall u r, skip_tagged_fields bs = DOk u r -> exists pre, bs = pre ++ r /\ pre <> [].
Proof. exact skip_tagged_fields_total. Qed.
(* the generator-reply decoder *)
Theorem C11_reply_total_prefix : (forall bs, dec_reply bs <> DErr EFuel) /\
  forall bs v r, dec_reply bs = DOk v r -> exists pre, bs = pre ++ r /\ pre <> [].
Proof. exact reply_total_prefix. Qed.
Theorem C11_reply_wellformed : forall bs fs ds r, dec_reply bs = DOk (fs, ds) r ->
  Forall (fun f => utf8_valid (gf_path f) = true /\ utf8_valid (gf_contents f) = true) fs /\
  Forall (fun d => gd_level d <= 2 /\ utf8_valid (gd_message d) = true) ds.
Proof. exact reply_files_wellformed. Qed.
(* a buffer cut anywhere inside an encoded value is an error, never a shorter value; and what is decoded does not depend on
   what follows it in the buffer (for every decodable type, nested to any depth) *)
Theorem C11_truncation_rejected : forall t, wf_ty t -> forall bs v r, dec_val t bs = DOk v r ->
  forall k, (k < length bs - length r)%nat -> exists e, dec_val t (firstn k bs) = DErr e /\ e <> EFuel.
Proof. exact truncated_value_rejected. Qed.
Theorem C11_decoded_value_independent_of_rest : forall t bs v r x, dec_val t bs = DOk v r -> dec_val t (bs ++ x) = DOk v (r ++ x).
Proof. exact decoded_value_independent_of_rest. Qed.

Example C11_instances :
  dec_val (TDict (PU 1) (TP PBool)) [8; 5; 1; 5; 0] = DErr EDupKey /\
  dec_val (TSeq (TP PStr)) [4; 8; 255; 255] = DErr EInvalidUtf8 /\
  dec_val (TP PBool) [2] = DErr EIllegalBool /\
  dec_val (TSeq (TP (PU 1))) [254; 255; 255; 255] = DErr EEob /\
  seq_reservation [254; 255; 255; 255] = Some 0.
Proof. vm_compute. repeat split. Qed.
