(* Round trip of the schema-dictated codec, for every schema type and every value of it (C08). *)
From Coq Require Import List NArith ZArith Lia.
From SliceV Require Import Base.Bytes Base.Utf8 Codec.Wire Codec.WireProofs Codec.CollProofs Request.Schema.
Import ListNotations.
Open Scope N_scope.

Inductive has_sty : sty -> sval -> Prop :=
| hs_bool b : has_sty YBool (SBool b)
| hs_str s : utf8_valid s = true -> N.of_nat (length s) < 2 ^ 62 -> has_sty YStr (SStr s)
| hs_u8 n : n < 256 -> has_sty YU8 (SN n)
| hs_u64 n : n < 2 ^ 64 -> has_sty YU64 (SN n)
| hs_i32 z : (I32_MIN <= z <= I32_MAX)%Z -> has_sty YI32 (SZ z)
| hs_varint32 z : (I32_MIN <= z <= I32_MAX)%Z -> has_sty YVarInt32 (SZ z)
| hs_seq e l : Forall (has_sty e) l -> N.of_nat (length l) < 2 ^ 62 -> has_sty (YSeq e) (SSeq l)
| hs_dict k v l : Forall (fun kv => has_sty k (fst kv) /\ has_sty v (snd kv)) l -> N.of_nat (length l) < 2 ^ 62 -> has_sty (YDict k v) (SDict l)
| hs_struct fs vs : (count_opt fs <= 1)%nat -> fields_ok fs vs -> has_sty (YStruct fs) (SStruct vs)
| hs_variant vars d fs vs : find_variant d vars = Some fs -> (I32_MIN <= d <= I32_MAX)%Z -> (count_opt fs <= 1)%nat -> fields_ok fs vs ->
    has_sty (YVariant vars) (SVariant d vs)
| hs_enum c n : n < c -> c <= 256 -> has_sty (YEnumU8 c) (SN n)
with fields_ok : list (bool * sty) -> list (option sval) -> Prop :=
| fo_nil : fields_ok [] []
| fo_some o t fs x vs : has_sty t x -> fields_ok fs vs -> fields_ok ((o, t) :: fs) (Some x :: vs)
| fo_none t fs vs : fields_ok fs vs -> fields_ok ((true, t) :: fs) (None :: vs).

Definition fields_depth (fs : list (bool * sty)) : nat := fold_right (fun ft m => Nat.max (sty_depth (snd ft)) m) 0%nat fs.
Lemma fields_depth_in fs o t : In (o, t) fs -> (sty_depth t <= fields_depth fs)%nat.
Proof.
  unfold fields_depth. induction fs as [|[o' t'] fs IH]; [contradiction|]. cbn [fold_right snd].
  intros [[= _ <-]|H]; [apply Nat.le_max_l|exact (Nat.le_trans _ _ _ (IH H) (Nat.le_max_r _ _))].
Qed.
Lemma variants_depth_in vars d fs : find_variant d vars = Some fs -> (S (fields_depth fs) <= sty_depth (YVariant vars))%nat.
Proof.
  cbn [sty_depth]. intros H. apply le_n_S. revert H. induction vars as [|[d' fs'] vars IH]; [discriminate|]. cbn [find_variant fold_right snd].
  destruct (Z.eqb d d'); [intros [= ->]; apply Nat.le_max_l|intros H; exact (Nat.le_trans _ _ _ (IH H) (Nat.le_max_r _ _))].
Qed.
Lemma depth_pos t : (1 <= sty_depth t)%nat.
Proof. destruct t; apply le_n_S, Nat.le_0_l. Qed.

Lemma skip_tag_end rest : skip_tagged_fields (tag_end ++ rest) = DOk tt rest.
Proof. reflexivity. Qed.

(* every optional field is there exactly when the presence bit says so *)
Fixpoint agree (present : bool) (fs : list (bool * sty)) (vs : list (option sval)) : Prop :=
  match fs, vs with
  | (o, _) :: fs', v :: vs' => (o = true -> present = match v with Some _ => true | None => false end) /\ agree present fs' vs'
  | [], [] => True
  | _, _ => False
  end.
Lemma no_opt_agree p fs vs : count_opt fs = 0%nat -> fields_ok fs vs -> agree p fs vs /\ present_bit fs vs = false.
Proof.
  intros Hc H. induction H as [|o t fs x vs Hx Hf IH|t fs vs Hf IH]; [split; [exact I|reflexivity]| |discriminate].
  destruct o; [discriminate|]. destruct (IH Hc) as [Ha Hp]. split; [split; [discriminate|exact Ha]|exact Hp].
Qed.
Lemma agree_present fs vs : (count_opt fs <= 1)%nat -> fields_ok fs vs -> agree (present_bit fs vs) fs vs.
Proof.
  intros Hc H. induction H as [|[|] t fs x vs Hx Hf IH|t fs vs Hf IH]; [exact I| | |].
  - split; [reflexivity|]. apply no_opt_agree; [|exact Hf]. apply le_S_n in Hc. apply Nat.le_0_r, Hc.
  - split; [discriminate|exact (IH Hc)].
  - apply le_S_n, Nat.le_0_r in Hc. destruct (no_opt_agree false fs vs Hc Hf) as [Ha Hp]. unfold present_bit in *. cbn. rewrite Hp. split; [reflexivity|exact Ha].
Qed.

Lemma enc_list_items enc t l : enc_list enc t l = enc_items (enc t) l.
Proof. induction l as [|x l IH]; cbn [enc_list enc_items]; [reflexivity|]. rewrite IH. destruct (enc t x); reflexivity. Qed.
Lemma dec_list_items dec t : forall fuel n bs, dec_list dec fuel n t bs = dec_items (dec t) fuel n bs.
Proof.
  induction fuel as [|f IH]; intros n bs; cbn [dec_list dec_items]; [reflexivity|]. destruct (n =? 0); [reflexivity|].
  destruct (dec t bs); cbn [dbind]; [rewrite IH|]; reflexivity.
Qed.
Lemma enc_pairs_items enc k v l : enc_pairs enc k v l = enc_items (enc_pair (enc k) (enc v)) l.
Proof.
  induction l as [|[a b] l IH]; cbn [enc_pairs enc_items]; [reflexivity|]. unfold enc_pair. cbn [fst snd]. rewrite IH.
  destruct (enc k a); [destruct (enc v b); [destruct (enc_items _ l); cbn [obind]; [rewrite app_assoc|]|]|]; reflexivity.
Qed.
Lemma dec_pairs_items dec k v : forall fuel n bs, dec_pairs dec fuel n k v bs = dec_items (dec_pair (dec k) (dec v)) fuel n bs.
Proof.
  induction fuel as [|f IH]; intros n bs; cbn [dec_pairs dec_items]; [reflexivity|]. destruct (n =? 0); [reflexivity|]. unfold dec_pair.
  destruct (dec k bs) as [a r|]; cbn [dbind]; [|reflexivity]. destruct (dec v r); cbn [dbind]; [rewrite IH|]; reflexivity.
Qed.
Definition roundtrips {A} (enc : option (list byte)) (dec : list byte -> dres A) (x : A) (rest : list byte) : Prop :=
  exists bs, enc = Some bs /\ bs <> [] /\ dec (bs ++ rest) = DOk x rest.
Lemma wrap_roundtrip {A} (enc : option (list byte)) (dec : list byte -> dres A) (wrap : A -> sval) x rest :
  roundtrips enc dec x rest -> roundtrips enc (fun bs => dlet (a, r) <- dec bs ;; DOk (wrap a) r) (wrap x) rest.
Proof. intros (b & Hb & Hne & Hd). exists b. rewrite Hd. split; [exact Hb|split; [exact Hne|reflexivity]]. Qed.
Lemma sized_roundtrip {A} enc_e dec_e (dl : nat -> N -> list byte -> dres (list A)) (wrap : list A -> sval) (P : A -> Prop) l rest :
  (forall fuel n bs, dl fuel n bs = dec_items dec_e fuel n bs) ->
  (forall x rest, P x -> roundtrips (enc_e x) dec_e x rest) -> Forall P l -> N.of_nat (length l) < 2 ^ 62 ->
  roundtrips (enc_seq enc_e l) (fun bs => dlet (n, r) <- dec_size bs ;; dlet (l', r') <- dl (S (length r)) n r ;; DOk (wrap l') r') (wrap l) rest.
Proof.
  intros Hdl Hrt Hl Hn. destruct (seq_roundtrip_ne enc_e dec_e P Hrt l rest Hl Hn) as (bs & Hb & Hne & Hd). exists bs. split; [exact Hb|split; [exact Hne|]].
  unfold dec_seq in Hd. destruct (dec_size (bs ++ rest)) as [n r|]; [cbn [dbind] in *; rewrite Hdl, Hd; reflexivity|discriminate].
Qed.

Section Step.
  Variable f : nat.
  Hypothesis IH : forall t v rest, (sty_depth t <= f)%nat -> has_sty t v -> roundtrips (enc_sval f t v) (dec_sval f t) v rest.

  Lemma fields_roundtrip fs vs present rest : fields_ok fs vs -> (fields_depth fs <= f)%nat -> agree present fs vs ->
    exists b, enc_fields (enc_sval f) fs vs = Some b /\ dec_fields (dec_sval f) present fs (b ++ rest) = DOk vs rest.
  Proof.
    intros H. induction H as [|o t fs x vs Hx Hf IHf|t fs vs Hf IHf]; cbn [fields_depth fold_right snd agree enc_fields dec_fields]; intros Hd Ha.
    2-3: destruct Ha as [Ho Ha]; destruct (IHf (Nat.max_lub_r _ _ _ Hd) Ha) as (b & Hb & Hdec).
    - exists []. split; reflexivity.
    - destruct (IH t x (b ++ rest) (Nat.max_lub_l _ _ _ Hd) Hx) as (a & Ea & _ & Da).
      exists (a ++ b). rewrite Ea, Hb. split; [reflexivity|]. replace (o && negb present) with false by (destruct o; [rewrite (Ho eq_refl)|]; reflexivity).
      rewrite <- app_assoc, Da. cbn [dbind]. rewrite Hdec. reflexivity.
    - exists b. rewrite (Ho eq_refl) in *. rewrite Hdec. split; [exact Hb|reflexivity].
  Qed.

  Lemma body_roundtrip fs vs rest : fields_ok fs vs -> (count_opt fs <= 1)%nat -> (fields_depth fs <= f)%nat ->
    roundtrips (enc_body (enc_sval f) fs vs) (dec_body (dec_sval f) fs) vs rest.
  Proof.
    intros Hf Hc Hd. unfold enc_body, dec_body. destruct (Nat.eqb_spec (count_opt fs) 0) as [E0|E0].
    - destruct (fields_roundtrip fs vs false (tag_end ++ rest) Hf Hd (proj1 (no_opt_agree false fs vs E0 Hf))) as (b & Hb & Hdec).
      rewrite Hb. eexists. split; [reflexivity|]. split; [apply not_eq_sym, app_cons_not_nil|]. cbn [app dbind]. rewrite <- app_assoc, Hdec. cbn [dbind]. rewrite skip_tag_end. reflexivity.
    - destruct (fields_roundtrip fs vs (present_bit fs vs) (tag_end ++ rest) Hf Hd (agree_present fs vs Hc Hf)) as (b & Hb & Hdec).
      rewrite Hb. eexists. split; [reflexivity|]. split; [discriminate|]. cbn [obind].
      change [if present_bit fs vs then 1 else 0] with (enc_bool (present_bit fs vs)). rewrite <- !app_assoc, bool_roundtrip. cbn [dbind]. rewrite Hdec. cbn [dbind]. rewrite skip_tag_end. reflexivity.
  Qed.
End Step.

(* the primitives: what the encoder writes is not empty and decodes to the value *)
Lemma written_roundtrip {A} (dec : list byte -> dres A) x bs rest : bs <> [] -> dec (bs ++ rest) = DOk x rest -> roundtrips (Some bs) dec x rest.
Proof. intros Hne Hd. exists bs. split; [reflexivity|split; [exact Hne|exact Hd]]. Qed.
Lemma bool_roundtrips b rest : roundtrips (Some (enc_bool b)) dec_bool b rest.
Proof. apply written_roundtrip; [discriminate|apply bool_roundtrip]. Qed.
Lemma str_roundtrips s rest : utf8_valid s = true -> N.of_nat (length s) < 2 ^ 62 -> roundtrips (enc_str s) dec_str s rest.
Proof.
  intros Hv Hl. destruct (str_roundtrip s rest Hv Hl) as (bs & Hb & Hdec). exists bs. split; [exact Hb|split; [|exact Hdec]].
  exact (enc_str_nonempty s bs Hb).
Qed.
Lemma u8_roundtrips n rest : n < 256 -> roundtrips (Some (enc_uint 1 n)) (dec_uint 1) n rest.
Proof. intros Hn. change 256 with (256 ^ N.of_nat 1) in Hn. apply written_roundtrip; [discriminate|apply uint_roundtrip, Hn]. Qed.
Lemma u64_roundtrips n rest : n < 2 ^ 64 -> roundtrips (Some (enc_uint 8 n)) (dec_uint 8) n rest.
Proof. intros Hn. change (2 ^ 64) with (256 ^ N.of_nat 8) in Hn. apply written_roundtrip; [discriminate|apply uint_roundtrip, Hn]. Qed.
Lemma i32_roundtrips z rest : (I32_MIN <= z <= I32_MAX)%Z -> roundtrips (Some (enc_int 4 z)) (dec_int 4) z rest.
Proof.
  intros Hz. apply written_roundtrip; [discriminate|]. apply int_roundtrip; [apply Nat.lt_0_succ|].
  unfold I32_MIN, I32_MAX in Hz. change (2 ^ (8 * Z.of_nat 4 - 1))%Z with 2147483648%Z. lia.
Qed.
Lemma varint32_roundtrip z rest : (I32_MIN <= z <= I32_MAX)%Z -> roundtrips (enc_varint z) (dec_varint_in I32_MIN I32_MAX) z rest.
Proof.
  intros H. destruct (varint_roundtrip z rest) as (bs & Hb & Hdec); [unfold I32_MIN, I32_MAX in H; lia|].
  exists bs. split; [exact Hb|]. split; [exact (width_nonempty _ (varint_length _ _ Hb))|].
  unfold dec_varint_in. rewrite Hdec. cbn [dbind]. destruct H as [H1%Z.leb_le H2%Z.leb_le]. rewrite H1, H2. reflexivity.
Qed.

(* decoding, field by field as the schema dictates, what the encoders wrote gives back the value and leaves exactly the rest *)
Theorem schema_roundtrip : forall fuel t v rest, (sty_depth t <= fuel)%nat -> has_sty t v ->
  exists bs, enc_sval fuel t v = Some bs /\ bs <> [] /\ dec_sval fuel t (bs ++ rest) = DOk v rest.
Proof.
  induction fuel as [|f IH]; intros t v rest Hd Ht; [pose proof (depth_pos t); lia|].
  destruct Ht as [b|s Hv Hl|n Hn|n Hn|z Hz|z Hz|e l Hl Hn|k v l Hl Hn|fs vs Hc Hf|vars d fs vs Hfv Hz Hc Hf|c n Hn Hc]; cbn [enc_sval dec_sval].
  - (* hs_bool *) apply wrap_roundtrip, bool_roundtrips.
  - (* hs_str *) apply wrap_roundtrip, str_roundtrips; assumption.
  - (* hs_u8 *) apply wrap_roundtrip, u8_roundtrips, Hn.
  - (* hs_u64 *) apply wrap_roundtrip, u64_roundtrips, Hn.
  - (* hs_i32 *) apply wrap_roundtrip, i32_roundtrips, Hz.
  - (* hs_varint32 *) apply wrap_roundtrip, varint32_roundtrip, Hz.
  - (* hs_seq *) rewrite enc_list_items.
    exact (sized_roundtrip _ _ (fun fuel n bs => dec_list (dec_sval f) fuel n e bs) SSeq _ l rest (dec_list_items _ e) (fun x r => IH e x r (le_S_n _ _ Hd)) Hl Hn).
  - (* hs_dict *) rewrite enc_pairs_items.
    refine (sized_roundtrip _ _ (fun fuel n bs => dec_pairs (dec_sval f) fuel n k v bs) SDict _ l rest (dec_pairs_items _ k v) _ Hl Hn).
    apply le_S_n in Hd. apply pair_roundtrip; [exact (fun x r => IH k x r (Nat.max_lub_l _ _ _ Hd))|].
    intros x r Hx. destruct (IH v x r (Nat.max_lub_r _ _ _ Hd) Hx) as (b & Eb & _ & Db). exists b. split; assumption.
  - (* hs_struct *) apply wrap_roundtrip. exact (body_roundtrip f IH fs vs rest Hf Hc (le_S_n _ _ Hd)).
  - (* hs_variant *) destruct (body_roundtrip f IH fs vs rest Hf Hc (le_S_n _ _ (Nat.le_trans _ _ _ (variants_depth_in vars d fs Hfv) Hd))) as (b & Hb & _ & Hdec).
    destruct (varint32_roundtrip d (b ++ rest) Hz) as (h & Hh & Hne & Hdh). rewrite Hfv, Hh, Hb. eexists. split; [reflexivity|].
    split; [intros E; apply app_eq_nil in E as [E _]; exact (Hne E)|]. rewrite <- app_assoc, Hdh. cbn [dbind]. rewrite Hfv, Hdec. reflexivity.
  - (* hs_enum *) assert (E : (n <? c) = true) by apply N.ltb_lt, Hn. rewrite E. eexists. split; [reflexivity|]. split; [discriminate|].
    pose proof (N.lt_le_trans _ _ _ Hn Hc) as H8. change 256 with (256 ^ N.of_nat 1) in H8.
    rewrite (uint_roundtrip 1 n rest H8). cbn [dbind]. rewrite E. reflexivity.
Qed.
