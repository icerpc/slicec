(* What the converter model guarantees for every compiled file (C08): the contents it produces pass the executable check of
   Request.v -- every numeric type id names an anonymous-type symbol at an earlier position of the same file -- and, the
   anonymous-type symbols set aside, the symbols are the definitions in source order. *)
From Coq Require Import List NArith ZArith Bool Lia.
From SliceV Require Import Base.Bytes Request.Schema Request.Request Request.Convert.
Import ListNotations.
Local Open Scope nat_scope.

Lemma div10 n : (n = 10 * (n / 10) + n mod 10 /\ n mod 10 < 10)%N.
Proof. split; [apply N.div_mod'|apply N.mod_lt; discriminate]. Qed.
Lemma digit_ok r : (r < 10 -> is_digit_b (48 + r) = true /\ 48 + r - 48 = r)%N.
Proof. intros L. split; [apply andb_true_iff; split; apply N.leb_le|]; lia. Qed.
(* digits_aux fuel n acc is the spelling of n followed by acc: reading it from 0 is reading acc from n *)
Lemma digits_spec : forall fuel n acc, (n < N.of_nat fuel)%N ->
  length acc < length (digits_aux fuel n acc) <= length acc + fuel /\ forallb is_digit_b (digits_aux fuel n acc) = forallb is_digit_b acc /\
  number_of 0 (digits_aux fuel n acc) = number_of n acc.
Proof.
  induction fuel as [|f IH]; intros n acc Hn; [destruct (N.nlt_0_r _ Hn)|]. cbn [digits_aux]. destruct (div10 n) as [E L]. revert E L. generalize (n / 10)%N (n mod 10)%N. intros q r E L.
  destruct (digit_ok r L) as [Hd Hs]. destruct (N.ltb_spec n 10) as [Hlt|Hge].
  - cbn [length forallb number_of]. rewrite Hd, Hs. replace n with r by (clear -E L Hlt; lia). split; [clear; lia|split; reflexivity].
  - assert (Hq : (q < N.of_nat f)%N) by (clear -E Hge Hn; lia).
    destruct (IH q ((48 + r)%N :: acc) Hq) as (Hl & Hf & Hv). rewrite Hf, Hv. cbn [length forallb number_of] in *. rewrite Hd, Hs, N.mul_comm, <- E.
    split; [clear -Hl; lia|split; reflexivity].
Qed.
Lemma decimal_spec n : 0 < length (decimal n) <= S (N.to_nat n) /\ forallb is_digit_b (decimal n) = true /\ number_of 0 (decimal n) = n.
Proof. apply (digits_spec _ n []). lia. Qed.
Theorem numeric_decimal n : numeric_id (decimal n) = Some n.
Proof.
  destruct (decimal_spec n) as ([Hl _] & Hf & Hv). unfold numeric_id. destruct (decimal n); [destruct (Nat.lt_irrefl _ Hl)|]. rewrite Hf, Hv. reflexivity.
Qed.

Definition id_okb (st : list sval) (id : list byte) : bool :=
  match numeric_id id with
  | Some n => (N.to_nat n <? length st) && match nth_error st (N.to_nat n) with Some a => is_anonymous a | None => false end
  | None => true
  end.
Lemma ids_ok_from_snoc x : forall r b, ids_ok_from (length b) b (r ++ [x]) = ids_ok_from (length b) b r && forallb (id_okb (b ++ r)) (typeref_ids 40 x).
Proof.
  induction r as [|y r IH]; intros b; cbn [app ids_ok_from andb].
  - rewrite app_nil_r. apply andb_true_r.
  - specialize (IH (b ++ [y])). rewrite app_length in IH. cbn [length] in IH. rewrite Nat.add_1_r in IH. rewrite IH, <- app_assoc. apply andb_assoc.
Qed.
(* the invariant of the conversion: the contents built so far pass the check of Request.v *)
Definition good (st : list sval) : Prop := ids_ok_from 0 [] st = true.
(* for every search depth: the check searches a symbol to depth 40, its parts to less *)
Definition val_ok (st : list sval) (v : sval) : Prop := forall fuel, forallb (id_okb st) (typeref_ids fuel v) = true.
Lemma good_snoc st x : good st -> val_ok st x -> good (st ++ [x]).
Proof. unfold good. intros G V. pose proof (ids_ok_from_snoc x st []) as H. cbn [length app] in H. rewrite H, G, (V 40). reflexivity. Qed.

Definition extends (st st' : list sval) : Prop := exists ext, st' = st ++ ext /\ forallb is_anonymous ext = true.
Lemma extends_refl st : extends st st. Proof. exists []. rewrite app_nil_r. split; reflexivity. Qed.
Lemma extends_trans {a b c} : extends a b -> extends b c -> extends a c.
Proof. intros (x & -> & Hx) (y & -> & Hy). exists (x ++ y). rewrite app_assoc, forallb_app, Hx, Hy. split; reflexivity. Qed.
Lemma extends_snoc a x : is_anonymous x = true -> extends a (a ++ [x]).
Proof. intros Hx. exists [x]. cbn. rewrite Hx. split; reflexivity. Qed.
Lemma extends_length a b : extends a b -> length a <= length b.
Proof. intros (e & -> & _). rewrite app_length. lia. Qed.
Lemma id_okb_mono st ext id : id_okb st id = true -> id_okb (st ++ ext) id = true.
Proof.
  unfold id_okb. destruct (numeric_id id) as [n|]; [|tauto]. intros H. apply andb_true_iff in H as [H1 H2]. apply Nat.ltb_lt in H1.
  apply andb_true_iff. split; [apply Nat.ltb_lt; rewrite app_length; lia|]. rewrite nth_error_app1 by exact H1. exact H2.
Qed.
Lemma val_ok_ext st st' v : extends st st' -> val_ok st v -> val_ok st' v.
Proof. intros (e & -> & _) H fuel. specialize (H fuel). rewrite forallb_forall in *. intros id Hid. apply id_okb_mono, H, Hid. Qed.
Lemma forallb_flat_map {A B} (p : B -> bool) (f : A -> list B) l : forallb p (flat_map f l) = forallb (fun x => forallb p (f x)) l.
Proof. induction l as [|x l IH]; cbn [flat_map forallb]; [reflexivity|]. rewrite forallb_app, IH. reflexivity. Qed.
Lemma val_ok_leaf st v : match v with SSeq _ | SStruct _ | SVariant _ _ => False | _ => True end -> val_ok st v.
Proof. intros H [|f]; [reflexivity|]. destruct v; try contradiction; reflexivity. Qed.
Lemma val_ok_seq st l : Forall (val_ok st) l -> val_ok st (SSeq l).
Proof.
  intros H [|f]; [reflexivity|]. cbn [typeref_ids]. rewrite forallb_flat_map. apply forallb_forall. intros x Hx.
  rewrite Forall_forall in H. exact (H x Hx f).
Qed.
Lemma val_ok_map {A} st (g : A -> sval) l : (forall a, val_ok st (g a)) -> val_ok st (SSeq (map g l)).
Proof. intros H. apply val_ok_seq, Forall_map, Forall_forall. intros a _. apply H. Qed.
Definition opt_ok (st : list sval) (o : option sval) : Prop := match o with Some x => val_ok st x | None => True end.
Lemma opt_ids_ok st fs f : Forall (opt_ok st) fs -> forallb (id_okb st) (flat_map (fun o => match o with Some x => typeref_ids f x | None => [] end) fs) = true.
Proof.
  intros H. rewrite forallb_flat_map. apply forallb_forall. intros o Ho. rewrite Forall_forall in H. specialize (H o Ho). destruct o as [x|]; [exact (H f)|reflexivity].
Qed.
Lemma val_ok_variant st d fs : Forall (opt_ok st) fs -> val_ok st (SVariant d fs).
Proof. intros H [|f]; [reflexivity|]. apply opt_ids_ok, H. Qed.
(* a struct that does not look like a TypeRef *)
Definition plain (fs : list (option sval)) : bool := match fs with [Some (SStr _); Some (SBool _); Some (SSeq _)] => false | _ => true end.
Lemma plain_match {R} fs (a : list byte -> R) (b : R) : plain fs = true -> match fs with [Some (SStr id); Some (SBool _); Some (SSeq _)] => a id | _ => b end = b.
Proof. intros P. do 3 (destruct fs as [|[[]|] fs]; try reflexivity). destruct fs; [discriminate P|reflexivity]. Qed.
Lemma plain_pair a b : plain [a; b] = true.
Proof. destruct a as [[]|]; try reflexivity. destruct b as [[]|]; reflexivity. Qed.
Lemma val_ok_struct st fs : plain fs = true -> Forall (opt_ok st) fs -> val_ok st (SStruct fs).
Proof. intros P H [|f]; [reflexivity|]. cbn [typeref_ids]. rewrite plain_match by exact P. apply opt_ids_ok, H. Qed.
Lemma val_ok_typeref st id opt attrs : id_okb st id = true -> val_ok st (v_typeref id opt attrs).
Proof. intros H [|f]; [reflexivity|]. cbn [typeref_ids v_typeref v_attrs forallb]. rewrite H. reflexivity. Qed.

Lemma val_ok_strs st l : val_ok st (SSeq (map SStr l)).
Proof. apply val_ok_map. intros s. apply val_ok_leaf, I. Qed.
Lemma val_ok_attrs st l : val_ok st (v_attrs l).
Proof. apply val_ok_map. intros a. apply val_ok_struct; [reflexivity|repeat constructor; [apply val_ok_leaf, I|apply val_ok_strs]]. Qed.
Lemma val_ok_message st m : val_ok st (v_message m).
Proof. apply val_ok_map. intros [s|i]; apply val_ok_variant; repeat constructor; apply val_ok_leaf, I. Qed.
Lemma val_ok_doc st d : val_ok st (v_doc d).
Proof. apply val_ok_struct; [reflexivity|repeat constructor; [apply val_ok_message|apply val_ok_strs]]. Qed.
Lemma val_ok_tagdoc st m : val_ok st (v_tagdoc m).
Proof. apply val_ok_struct; [reflexivity|repeat constructor; [apply val_ok_message|apply (val_ok_strs st [])]]. Qed.
Lemma val_ok_entity st name attrs doc : opt_ok st doc -> val_ok st (v_entity name attrs doc).
Proof. intros Hd. apply val_ok_struct; [reflexivity|repeat constructor; [apply val_ok_leaf, I|apply val_ok_attrs|exact Hd]]. Qed.
Lemma opt_doc_ok st (d : option cdoc) : opt_ok st (option_map v_doc d).
Proof. destruct d; [apply val_ok_doc|exact I]. Qed.
Lemma val_ok_entity_struct st name attrs doc fs : opt_ok st doc -> Forall (opt_ok st) fs -> val_ok st (SStruct (Some (v_entity name attrs doc) :: fs)).
Proof. intros Hd H. apply val_ok_struct; [reflexivity|constructor; [apply val_ok_entity, Hd|exact H]]. Qed.

(* names are not spelled with digits only (identifiers start with a letter, primitive names are words) *)
Fixpoint wf_tref (t : ctref) : Prop := match t with CRef tgt _ _ => wf_target tgt end
with wf_target (t : ctarget) : Prop :=
  match t with
  | GNamed id => numeric_id id = None | GPrim nm => numeric_id nm = None
  | GSeq e => wf_tref e | GDict k v => wf_tref k /\ wf_tref v | GRes s f => wf_tref s /\ wf_tref f
  end.
Definition wf_op (o : cop) : Prop := Forall (fun p => wf_tref (cp_type p)) (co_params o) /\ Forall (fun p => wf_tref (cp_type p)) (co_rets o).
Definition wf_def (d : cdef) : Prop :=
  match d with
  | CStruct _ _ _ _ fields => Forall (fun f => wf_tref (cf_type f)) fields
  | CIface _ _ _ _ ops => Forall (fun o => Forall (fun p => wf_tref (cp_type p)) (co_params o) /\ Forall (fun p => wf_tref (cp_type p)) (co_rets o)) ops
  | CEnum _ _ _ _ _ _ ens => Forall (fun e => Forall (fun f => wf_tref (cf_type f)) (ce_fields e)) ens
  | CCustom _ _ _ => True
  | CAlias _ _ _ t => wf_tref t
  end.

(* what every conversion step is shown to do: the contents it leaves satisfy Inv, its result satisfies O over them (`each`: a list of results) *)
Definition post {A} (Inv : list sval -> Prop) (O : list sval -> A -> Prop) (r : A * list sval) : Prop := let '(v, st') := r in Inv st' /\ O st' v.
Definition each {A} (O : list sval -> sval -> Prop) (l : list A) (st' : list sval) (vs : list sval) : Prop := Forall (O st') vs /\ length vs = length l.
(* the conversions are chains of `let '(v, st') := ... in`; these take one link off *)
Lemma post_let {A B} {Inv O} {r : A * list sval} {k : A -> list sval -> B} {Q : B -> Prop} :
  post Inv O r -> (forall v st', r = (v, st') -> Inv st' -> O st' v -> Q (k v st')) -> Q (let '(v, st') := r in k v st').
Proof. destruct r as [v st']. intros [Hi Ho] H. exact (H v st' eq_refl Hi Ho). Qed.
Lemma ext_let {A B} {st} {r : A * list sval} {k : A -> list sval -> B * list sval} :
  extends st (snd r) -> (forall v st', extends st' (snd (k v st'))) -> extends st (snd (let '(v, st') := r in k v st')).
Proof. destruct r as [v st']. intros E H. exact (extends_trans E (H v st')). Qed.

(* conv_fields, conv_params, conv_ops and conv_variants all convert the elements in order, handing the contents on *)
Section Thread.
  Context {A : Type} (step : A -> list sval -> sval * list sval).
  Fixpoint thread (l : list A) (st : list sval) : list sval * list sval :=
    match l with [] => ([], st) | x :: r => let '(v, st1) := step x st in let '(vs, st2) := thread r st1 in (v :: vs, st2) end.
  Hypothesis step_ext : forall x st, extends st (snd (step x st)).
  Lemma thread_ext l : forall st, extends st (snd (thread l st)).
  Proof.
    induction l as [|x r IH]; intros st; cbn [thread]; [apply extends_refl|]. apply (ext_let (step_ext x st)). intros v st1.
    apply (ext_let (IH st1)). intros. apply extends_refl.
  Qed.
  Context {W : A -> Prop} {Inv : list sval -> Prop} {O : list sval -> sval -> Prop}.
  Hypothesis O_ext : forall st st' v, extends st st' -> O st v -> O st' v.
  Hypothesis step_ok : forall x st, W x -> Inv st -> post Inv O (step x st).
  Lemma thread_ok l : forall st, Forall W l -> Inv st -> post Inv (each O l) (thread l st).
  Proof.
    induction l as [|x r IH]; intros st Wl Hi; cbn [thread]; [repeat split; [exact Hi|constructor]|]. inversion Wl as [|? ? Wx Wr]; subst.
    apply (post_let (step_ok x st Wx Hi)). intros v st1 _ H1 Hv. pose proof (thread_ext r st1) as E.
    apply (post_let (IH st1 Wr H1)). intros vs st2 Er H2 [Hvs Hl]. rewrite Er in E.
    split; [exact H2|split; [constructor; [exact (O_ext _ _ _ E Hv)|exact Hvs]|cbn [length]; rewrite Hl; reflexivity]].
  Qed.
End Thread.
Lemma conv_params_thread docof : forall ps st, conv_params docof ps st = thread (fun p => conv_param (docof p) p) ps st.
Proof. induction ps as [|p r IH]; intros st; cbn [conv_params thread]; [reflexivity|]. destruct (conv_param (docof p) p st). rewrite IH. reflexivity. Qed.

Lemma conv_fields_thread fs st : conv_fields fs st = thread conv_field fs st. Proof. reflexivity. Qed.
Lemma conv_ops_thread os st : conv_ops os st = thread conv_op os st. Proof. reflexivity. Qed.
Lemma conv_variants_thread es st : conv_variants es st = thread conv_variant es st. Proof. reflexivity. Qed.

Scheme ctref_ind2 := Induction for ctref Sort Prop with ctarget_ind2 := Induction for ctarget Sort Prop.
Combined Scheme ctref_ctarget_ind from ctref_ind2, ctarget_ind2.
(* how conv_target converts a dictionary (d = 6) or a result (d = 7) type: its two parts, then the anonymous symbol d that holds them *)
Definition conv_pair (d : Z) (k v : ctref) (st : list sval) : cstring * list sval :=
  let '(rk, st1) := conv_tref k st in let '(rv, st2) := conv_tref v st1 in
  (decimal (N.of_nat (length st2)), st2 ++ [SVariant d [Some (SStruct [Some rk; Some rv])]]).
Lemma conv_dict_pair k v st : conv_target (GDict k v) st = conv_pair 6 k v st. Proof. reflexivity. Qed.
Lemma conv_res_pair s f st : conv_target (GRes s f) st = conv_pair 7 s f st. Proof. reflexivity. Qed.
Lemma conv_pair_ext d k v st : (forall fs, is_anonymous (SVariant d fs) = true) ->
  (forall st, extends st (snd (conv_tref k st))) -> (forall st, extends st (snd (conv_tref v st))) -> extends st (snd (conv_pair d k v st)).
Proof.
  intros A IHk IHv. unfold conv_pair. apply (ext_let (IHk st)). intros rk st1. apply (ext_let (IHv st1)). intros rv st2.
  apply extends_snoc, A.
Qed.
Lemma conv_tref_ext : (forall t st, extends st (snd (conv_tref t st))) /\ (forall t st, extends st (snd (conv_target t st))).
Proof.
  apply ctref_ctarget_ind.
  - intros tgt IH opt attrs st. cbn [conv_tref]. apply (ext_let (IH st)). intros. apply extends_refl.
  - (* named *) intros id st. apply extends_refl.
  - (* primitive *) intros nm st. apply extends_refl.
  - (* sequence *) intros e IH st. cbn [conv_target]. apply (ext_let (IH st)). intros r st1. apply extends_snoc. reflexivity.
  - (* dictionary *) intros k IHk v IHv st. rewrite conv_dict_pair. exact (conv_pair_ext 6 k v st (fun _ => eq_refl) IHk IHv).
  - (* result *) intros k IHk v IHv st. rewrite conv_res_pair. exact (conv_pair_ext 7 k v st (fun _ => eq_refl) IHk IHv).
Qed.
Lemma conv_param_ext doc p st : extends st (snd (conv_param doc p st)).
Proof. unfold conv_param. apply (ext_let (proj1 conv_tref_ext (cp_type p) st)). intros. apply extends_refl. Qed.
Lemma conv_field_param f st : conv_field f st = conv_param (option_map v_doc (cf_doc f)) (mkcparam (cf_name f) (cf_attrs f) (cf_tag f) false (cf_type f)) st.
Proof. reflexivity. Qed.
Lemma conv_field_ext f st : extends st (snd (conv_field f st)).
Proof. rewrite conv_field_param. apply conv_param_ext. Qed.
Lemma conv_params_ext docof ps st : extends st (snd (conv_params docof ps st)).
Proof. rewrite conv_params_thread. apply thread_ext. intros p. apply conv_param_ext. Qed.
Lemma conv_op_ext o st : extends st (snd (conv_op o st)).
Proof.
  unfold conv_op. apply (ext_let (conv_params_ext _ _ st)). intros ps st1. cbv beta zeta. apply (ext_let (conv_params_ext _ _ st1)). intros. apply extends_refl.
Qed.
Lemma conv_fields_ext fs st : extends st (snd (conv_fields fs st)).
Proof. rewrite conv_fields_thread. apply thread_ext, conv_field_ext. Qed.
Lemma conv_ops_ext os st : extends st (snd (conv_ops os st)).
Proof. rewrite conv_ops_thread. apply thread_ext, conv_op_ext. Qed.
Lemma conv_variant_ext e st : extends st (snd (conv_variant e st)).
Proof. unfold conv_variant. apply (ext_let (conv_fields_ext (ce_fields e) st)). intros. apply extends_refl. Qed.
Lemma conv_variants_ext es st : extends st (snd (conv_variants es st)).
Proof. rewrite conv_variants_thread. apply thread_ext, conv_variant_ext. Qed.

Lemma anonymous_snoc st x : good st -> is_anonymous x = true -> val_ok st x ->
  good (st ++ [x]) /\ id_okb (st ++ [x]) (decimal (N.of_nat (length st))) = true.
Proof.
  intros G A V. split; [exact (good_snoc st x G V)|]. unfold id_okb. rewrite numeric_decimal, Nat2N.id. apply andb_true_iff. split; [apply Nat.ltb_lt; rewrite app_length; cbn; lia|].
  rewrite nth_error_app2 by lia. rewrite Nat.sub_diag. exact A.
Qed.
Lemma conv_pair_ok d k v st : (forall fs, is_anonymous (SVariant d fs) = true) -> (forall st, wf_tref k -> good st -> post good val_ok (conv_tref k st)) ->
  (forall st, wf_tref v -> good st -> post good val_ok (conv_tref v st)) -> wf_tref k -> wf_tref v -> good st ->
  post good (fun st' id => id_okb st' id = true) (conv_pair d k v st).
Proof.
  intros A IHk IHv Wk Wv G. unfold conv_pair. apply (post_let (IHk st Wk G)). intros rk st1 _ G1 V1. pose proof (proj1 conv_tref_ext v st1) as E.
  apply (post_let (IHv st1 Wv G1)). intros rv st2 Ev G2 V2. rewrite Ev in E.
  apply anonymous_snoc; [exact G2|apply A|]. apply val_ok_variant. repeat constructor.
  apply val_ok_struct; [apply plain_pair|repeat constructor; [exact (val_ok_ext _ _ _ E V1)|exact V2]].
Qed.
Lemma conv_tref_ok : (forall t st, wf_tref t -> good st -> post good val_ok (conv_tref t st)) /\
                     (forall t st, wf_target t -> good st -> post good (fun st' id => id_okb st' id = true) (conv_target t st)).
Proof.
  apply ctref_ctarget_ind.
  - intros tgt IH opt attrs st W G. cbn [conv_tref]. apply (post_let (IH st W G)). intros id st' _ G' Hid.
    split; [exact G'|apply val_ok_typeref, Hid].
  - (* named *) intros id st W G. split; [exact G|]. unfold id_okb. cbn [wf_target] in W. rewrite W. reflexivity.
  - (* primitive *) intros nm st W G. split; [exact G|]. unfold id_okb. cbn [wf_target] in W. rewrite W. reflexivity.
  - (* sequence *) intros e IH st W G. cbn [conv_target]. apply (post_let (IH st W G)). intros r st1 _ G1 V1.
    apply anonymous_snoc; [exact G1|reflexivity|]. apply val_ok_variant. repeat constructor. apply val_ok_struct; [destruct r; reflexivity|repeat constructor; exact V1].
  - (* dictionary *) intros k IHk v IHv st [Wk Wv] G. rewrite conv_dict_pair. exact (conv_pair_ok 6 k v st (fun _ => eq_refl) IHk IHv Wk Wv G).
  - (* result *) intros k IHk v IHv st [Wk Wv] G. rewrite conv_res_pair. exact (conv_pair_ok 7 k v st (fun _ => eq_refl) IHk IHv Wk Wv G).
Qed.

Lemma tag_ok st t : opt_ok st (v_tag t).
Proof. destruct t; [apply val_ok_leaf, I|exact I]. Qed.
Lemma conv_param_ok doc p st : (forall st', opt_ok st' doc) -> wf_tref (cp_type p) -> good st -> post good val_ok (conv_param doc p st).
Proof.
  intros D W G. unfold conv_param. apply (post_let (proj1 conv_tref_ok (cp_type p) st W G)). intros tr st' _ G' V.
  split; [exact G'|]. apply val_ok_entity_struct; [apply D|repeat constructor; [apply tag_ok|exact V]].
Qed.
Lemma conv_field_ok f st : wf_tref (cf_type f) -> good st -> post good val_ok (conv_field f st).
Proof. intros W G. rewrite conv_field_param. apply conv_param_ok; [intros st'; apply opt_doc_ok|exact W|exact G]. Qed.
Lemma conv_params_ok docof ps st : (forall p st', opt_ok st' (docof p)) -> Forall (fun p => wf_tref (cp_type p)) ps -> good st ->
  post good (each val_ok ps) (conv_params docof ps st).
Proof.
  intros D. rewrite conv_params_thread.
  exact (thread_ok _ (fun p => conv_param_ext _ p) val_ok_ext (fun p st0 => conv_param_ok _ p st0 (D p)) ps st).
Qed.
Lemma find_tagdoc_ok {A} st g (l : list (A * list cmsg)) : opt_ok st (option_map (fun t => v_tagdoc (snd t)) (find g l)).
Proof. destruct (find g l); [apply val_ok_tagdoc|exact I]. Qed.
Lemma param_doc_ok d p st : opt_ok st (param_doc d p).
Proof. destruct d; [apply find_tagdoc_ok|exact I]. Qed.
Lemma return_doc_ok d single p st : opt_ok st (return_doc d single p).
Proof. destruct d; [apply find_tagdoc_ok|exact I]. Qed.
Lemma conv_op_ok o st : wf_op o -> good st -> post good val_ok (conv_op o st).
Proof.
  intros [Wp Wr] G. unfold conv_op. apply (post_let (conv_params_ok _ _ st (param_doc_ok (co_doc o)) Wp G)). intros ps st1 _ G1 [V1 _].
  cbv beta zeta. set (single := match co_rets o with [_] => true | _ => false end). pose proof (conv_params_ext (return_doc (co_doc o) single) (co_rets o) st1) as E.
  apply (post_let (conv_params_ok _ _ st1 (return_doc_ok (co_doc o) single) Wr G1)). intros rs st2 Er G2 [V2 _]. rewrite Er in E.
  split; [exact G2|]. apply val_ok_entity_struct; [apply opt_doc_ok|].
  repeat constructor; try apply val_ok_leaf, I.
  - apply val_ok_seq. eapply Forall_impl; [|exact V1]. intros v. apply val_ok_ext, E.
  - apply val_ok_seq, V2.
Qed.
Lemma conv_fields_ok fs st : Forall (fun f => wf_tref (cf_type f)) fs -> good st -> post good (each val_ok fs) (conv_fields fs st).
Proof. rewrite conv_fields_thread. exact (thread_ok conv_field conv_field_ext val_ok_ext conv_field_ok fs st). Qed.
Lemma conv_variant_ok e st : Forall (fun f => wf_tref (cf_type f)) (ce_fields e) -> good st -> post good val_ok (conv_variant e st).
Proof.
  intros W G. unfold conv_variant. apply (post_let (conv_fields_ok (ce_fields e) st W G)). intros fs st1 _ G1 [V1 _].
  split; [exact G1|]. apply val_ok_entity_struct; [apply opt_doc_ok|repeat constructor; [apply val_ok_leaf, I|apply val_ok_seq, V1]].
Qed.
Lemma val_ok_enumerator st e : val_ok st (v_enumerator e).
Proof. apply val_ok_entity_struct; [apply opt_doc_ok|repeat constructor; apply val_ok_leaf, I]. Qed.

Definition def_name (d : cdef) : cstring :=
  match d with CStruct n _ _ _ _ | CIface n _ _ _ _ | CEnum n _ _ _ _ _ _ | CCustom n _ _ | CAlias n _ _ _ => n end.
(* the name in the EntityInfo of a definition symbol *)
Definition symbol_name (v : sval) : option cstring :=
  match v with SVariant _ [Some (SStruct (Some (SStruct (Some (SStr n) :: _)) :: _))] => Some n | _ => None end.
Definition names (st : list sval) : list (option cstring) := map symbol_name (filter (fun v => negb (is_anonymous v)) st).
Lemma names_snoc {st st1 sym n} : extends st st1 -> is_anonymous sym = false -> symbol_name sym = Some n -> names (st1 ++ [sym]) = names st ++ [Some n].
Proof.
  intros (ext & -> & He) Hs Hn. unfold names. rewrite !filter_app, !map_app. cbn [filter]. rewrite Hs. cbn [negb map]. rewrite Hn.
  replace (filter _ ext) with (@nil sval); [rewrite app_nil_r; reflexivity|].
  induction ext as [|x l IHl]; [reflexivity|]. cbn [forallb] in He. apply andb_true_iff in He as [Hx Hl]. cbn [filter]. rewrite Hx. exact (IHl Hl).
Qed.
Lemma conv_def_names d st : names (conv_def d st) = names st ++ [Some (def_name d)].
Proof.
  destruct d as [name attrs doc compact fields|name attrs doc bases ops|name attrs doc compact unchecked [under|] ens|name attrs doc|name attrs doc t]; cbn [conv_def def_name].
  - (* CStruct *) pose proof (conv_fields_ext fields st) as E. destruct (conv_fields fields st) as [fs st1]. apply (names_snoc E); reflexivity.
  - (* CIface *) pose proof (conv_ops_ext ops st) as E. destruct (conv_ops ops st) as [os st1]. apply (names_snoc E); reflexivity.
  - (* CEnum over an underlying type: nothing but the symbol is added *) apply (names_snoc (extends_refl st)); reflexivity.
  - (* CEnum with fields *) pose proof (conv_variants_ext ens st) as E. destruct (conv_variants ens st) as [vs st1]. apply (names_snoc E); reflexivity.
  - (* CCustom *) apply (names_snoc (extends_refl st)); reflexivity.
  - (* CAlias *) pose proof (proj1 conv_tref_ext t st) as E. destruct (conv_tref t st) as [tr st1]. apply (names_snoc E); reflexivity.
Qed.
Lemma definition_snoc st d name attrs doc fs : good st -> Forall (opt_ok st) fs ->
  good (st ++ [SVariant d [Some (SStruct (Some (v_entity name attrs (option_map v_doc doc)) :: fs))]]).
Proof. intros G H. apply good_snoc; [exact G|]. apply val_ok_variant. repeat constructor. apply val_ok_entity_struct; [apply opt_doc_ok|exact H]. Qed.
Lemma conv_def_ok d st : wf_def d -> good st -> good (conv_def d st).
Proof.
  intros W G. destruct d as [name attrs doc compact fields|name attrs doc bases ops|name attrs doc compact unchecked [under|] ens|name attrs doc|name attrs doc t]; cbn [conv_def wf_def] in *.
  - (* CStruct *) apply (post_let (conv_fields_ok fields st W G)). intros fs st1 _ G1 [V1 _].
    apply definition_snoc; [exact G1|repeat constructor; [apply val_ok_leaf, I|apply val_ok_seq, V1]].
  - (* CIface *) change (Forall wf_op ops) in W. rewrite conv_ops_thread. apply (post_let (thread_ok conv_op conv_op_ext val_ok_ext conv_op_ok ops st W G)). intros os st1 _ G1 [V1 _].
    apply definition_snoc; [exact G1|repeat constructor; [apply val_ok_strs|apply val_ok_seq, V1]].
  - (* CEnum over an underlying type *) apply definition_snoc; [exact G|repeat constructor; try apply val_ok_leaf, I]. apply val_ok_map, val_ok_enumerator.
  - (* CEnum with fields *) rewrite conv_variants_thread. apply (post_let (thread_ok conv_variant conv_variant_ext val_ok_ext conv_variant_ok ens st W G)). intros vs st1 _ G1 [V1 _].
    apply definition_snoc; [exact G1|repeat constructor; try apply val_ok_leaf, I]. apply val_ok_seq, V1.
  - (* CCustom *) apply definition_snoc; [exact G|constructor].
  - (* CAlias *) apply (post_let (proj1 conv_tref_ok t st W G)). intros tr st1 _ G1 V1.
    apply definition_snoc; [exact G1|repeat constructor; exact V1].
Qed.
Lemma conv_defs_inv (W : cdef -> Prop) (Inv : list sval -> Prop) : (forall d st, W d -> Inv st -> Inv (conv_def d st)) ->
  forall ds st, Forall W ds -> Inv st -> Inv (fold_left (fun st d => conv_def d st) ds st).
Proof. intros H. induction ds as [|d r IH]; intros st Wl Hi; [exact Hi|]. inversion Wl as [|? ? Wd Wr]; subst. exact (IH _ Wr (H d st Wd Hi)). Qed.
Lemma conv_defs_names ds : forall st, names (fold_left (fun st d => conv_def d st) ds st) = names st ++ map (fun d => Some (def_name d)) ds.
Proof. induction ds as [|d r IH]; intros st; cbn [fold_left map]; [symmetry; apply app_nil_r|]. rewrite IH, conv_def_names, <- app_assoc. reflexivity. Qed.
(* for every compiled file: the contents pass the well-foundedness check that is also run on the decoded request ... *)
Theorem converted_file_ids_wellfounded f : Forall wf_def (cfl_defs f) -> file_ids_wellfounded (conv_file f) = true.
Proof.
  (* the check on conv_file f is `good` of its contents, conv_defs folds conv_def from [], and `good []` holds by computation *)
  intros W. change (good (fold_left (fun st d => conv_def d st) (cfl_defs f) [])). exact (conv_defs_inv wf_def good conv_def_ok (cfl_defs f) [] W eq_refl).
Qed.
(* ... and lists the definitions in source order: setting the anonymous-type symbols aside, the names are those of the definitions *)
Theorem converted_definitions_in_order f : Forall wf_def (cfl_defs f) ->
  map symbol_name (filter (fun v => negb (is_anonymous v)) (conv_defs (cfl_defs f))) = map (fun d => Some (def_name d)) (cfl_defs f).
Proof. intros _. exact (conv_defs_names (cfl_defs f) []). Qed.
