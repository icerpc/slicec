(* The request (C08): the schema round trip at the two types the request is made of, checked against the regenerated schema. *)
From Coq Require Import List Lia.
From SliceV Require Import Codec.Wire Request.Schema Request.SchemaProofs Gen.CompilerSchema Request.Request.
Import ListNotations.

(* the regenerated schema fits the fuel, and the regenerated encoder description agrees with it *)
Lemma request_depth_ok : (sty_depth (YSeq ty_SliceFile) <= request_fuel)%nat /\ (sty_depth ty_Arguments <= request_fuel)%nat.
Proof. vm_compute. split; repeat constructor. Qed.
Theorem encoders_follow_schema : encoders_match_schema = true.
Proof. vm_compute. reflexivity. Qed.

(* C08: decoding the request according to the schema gives back what was encoded and leaves exactly what follows *)
Theorem request_roundtrip r rest :
  has_sty YStr (rq_operation r) -> has_sty (YSeq ty_SliceFile) (rq_sources r) -> has_sty (YSeq ty_SliceFile) (rq_references r) ->
  has_sty ty_Arguments (rq_arguments r) ->
  exists bs, enc_request r = Some bs /\ dec_request (bs ++ rest) = DOk r rest.
Proof.
  intros H1 H2 H3 H4. destruct request_depth_ok as [D1 D2]. destruct r as [a b c d]. cbn [rq_operation rq_sources rq_references rq_arguments] in *.
  destruct (schema_roundtrip request_fuel ty_Arguments d rest D2 H4) as (bd & Ed & _ & Dd).
  destruct (schema_roundtrip request_fuel (YSeq ty_SliceFile) c (bd ++ rest) D1 H3) as (bc & Ec & _ & Dc).
  destruct (schema_roundtrip request_fuel (YSeq ty_SliceFile) b (bc ++ bd ++ rest) D1 H2) as (bb & Eb & _ & Db).
  destruct (schema_roundtrip request_fuel YStr a (bb ++ bc ++ bd ++ rest) ltac:(cbn; unfold request_fuel; lia) H1) as (ba & Ea & _ & Da).
  exists (ba ++ bb ++ bc ++ bd). unfold enc_request, dec_request. cbn [rq_operation rq_sources rq_references rq_arguments].
  rewrite Ea, Eb, Ec, Ed. split; [reflexivity|].
  rewrite <- !app_assoc, Da. cbn [dbind]. rewrite Db. cbn [dbind]. rewrite Dc. cbn [dbind]. rewrite Dd. reflexivity.
Qed.
