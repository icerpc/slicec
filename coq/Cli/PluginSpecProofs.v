(* Generator specifications (C19): what render writes, the parser reads back; what the parser accepts is well-formed. *)
From Coq Require Import List Bool NArith.
From SliceV Require Import Cli.PluginSpec.
Import ListNotations.
Open Scope N_scope.

(* c may be written in front of rest: a separator that follows it is not escaped by a backslash at its end *)
Definition ok (c rest : list N) : Prop :=
  match rest with d :: _ => is_sep d = true -> no_trailing_bs c | [] => True end.

Lemma ok_no_trailing_bs c rest : no_trailing_bs c -> ok c rest.
Proof. intros H. destruct rest; [exact I|]. intros _. exact H. Qed.
Lemma ok_tail x c rest : ok (x :: c) rest -> ok c rest.
Proof. destruct rest as [|d r]; [auto|]. intros H Hd. destruct c; [discriminate|]. exact (H Hd). Qed.
Lemma ok_bs_next c rest : ok (bs :: c) rest -> match esc c ++ rest with d :: _ => is_sep d = false | [] => True end.
Proof.
  destruct c as [|y c]; cbn [esc flat_map app].
  - destruct rest as [|d r]; [auto|]. intros H. destruct (is_sep d) eqn:E; [destruct (H E); reflexivity|reflexivity].
  - intros _. destruct (is_sep y) eqn:E; [reflexivity|exact E].
Qed.

Lemma go_escaped d r a : is_sep d = true -> go (bs :: d :: r) a = go r (push_char a d).
Proof. intros H. cbn [go]. rewrite N.eqb_refl, H. reflexivity. Qed.
Lemma go_bs r a : match r with d :: _ => is_sep d = false | [] => True end -> go (bs :: r) a = go r (push_char a bs).
Proof. intros H. cbn [go]. rewrite N.eqb_refl. destruct r; [|rewrite H]; reflexivity. Qed.
Lemma go_plain x r a : is_sep x = false -> x <> bs -> go (x :: r) a = go r (push_char a x).
Proof.
  intros H Hb. apply N.eqb_neq in Hb. apply orb_false_iff in H as [Hc He].
  cbn [go]. rewrite Hb, Hc, He. reflexivity.
Qed.
Lemma go_comma r a : r <> [] -> go (comma :: r) a = go r (new_arg a).
Proof. destruct r; [congruence|reflexivity]. Qed.
Lemma go_eq_key r a : a_mode a = MKey ->
  go (eqc :: r) a = go r {| a_path := a_path a; a_done := a_done a; a_key := a_key a; a_val := a_val a; a_mode := MVal |}.
Proof. intros H. cbn. rewrite H. reflexivity. Qed.
Lemma go_eq_val r a : a_mode a = MVal -> go (eqc :: r) a = None.
Proof. intros H. cbn. rewrite H. reflexivity. Qed.

Lemma go_esc : forall c rest a, ok c rest -> go (esc c ++ rest) a = go rest (fold_left push_char c a).
Proof.
  induction c as [|x c IH]; intros rest a Hok; [reflexivity|].
  cbn [esc flat_map fold_left]. fold (esc c). rewrite <- (IH rest _ (ok_tail _ _ _ Hok)).
  destruct (is_sep x) eqn:Ex; cbn [app]; [apply go_escaped, Ex|].
  destruct (N.eqb_spec x bs) as [->|Eb]; [apply go_bs, ok_bs_next, Hok|apply go_plain; assumption].
Qed.

Lemma push_chars c : forall a, fold_left push_char c a =
  match a_mode a with
  | MPath => {| a_path := a_path a ++ c; a_done := a_done a; a_key := a_key a; a_val := a_val a; a_mode := MPath |}
  | MKey => {| a_path := a_path a; a_done := a_done a; a_key := a_key a ++ c; a_val := a_val a; a_mode := MKey |}
  | MVal => {| a_path := a_path a; a_done := a_done a; a_key := a_key a; a_val := a_val a ++ c; a_mode := MVal |}
  end.
Proof.
  induction c as [|x c IH]; intros a; cbn [fold_left].
  - destruct a as [? ? ? ? []]; cbn; rewrite app_nil_r; reflexivity.
  - rewrite IH. unfold push_char. destruct (a_mode a); cbn; rewrite <- app_assoc; reflexivity.
Qed.
Lemma push_path c a : a_mode a = MPath ->
  fold_left push_char c a = {| a_path := a_path a ++ c; a_done := a_done a; a_key := a_key a; a_val := a_val a; a_mode := MPath |}.
Proof. intros Hm. rewrite push_chars, Hm. reflexivity. Qed.

(* omit: the '=' is left out, which is allowed only for an empty value of a non-empty key *)
Definition wf_arg (okv : bool * (list N * list N)) : Prop :=
  let '(omit, (k, v)) := okv in no_trailing_bs k /\ no_trailing_bs v /\ (omit = true -> v = [] /\ k <> []).

(* what may follow the last argument: nothing, or one trailing comma *)
Definition tl_ok (tl : list N) : Prop := tl = [] \/ tl = [comma].
Lemma go_tl tl a : tl_ok tl -> go tl a = Some a.
Proof. intros [->| ->]; reflexivity. Qed.

Lemma go_arg omit k v rest a : wf_arg (omit, (k, v)) ->
  exists a', go (comma :: esc k ++ (if omit then [] else eqc :: esc v) ++ rest) a = go rest a' /\
             a_path a' = a_path a /\ flush a' = flush a ++ [(k, v)] /\ a_mode a' = if omit then MKey else MVal.
Proof.
  intros (Hk & Hv & Hom).
  (* something follows the comma, so a new argument starts *)
  rewrite go_comma.
  2:{ destruct k as [|x k]; [destruct omit; [destruct (Hom eq_refl); congruence|discriminate]|]. cbn. destruct (is_sep x); discriminate. }
  rewrite go_esc, push_chars by (apply ok_no_trailing_bs, Hk). cbn [new_arg a_mode a_path a_done a_key a_val app].
  destruct omit; cbn [app].
  - destruct (Hom eq_refl) as [-> _]. eexists. repeat split; reflexivity.
  - rewrite go_eq_key by reflexivity. cbn [a_mode a_path a_done a_key a_val].
    rewrite go_esc, push_chars by (apply ok_no_trailing_bs, Hv). eexists. repeat split; reflexivity.
Qed.
Lemma go_args l : Forall wf_arg l -> forall rest a,
  exists a', go (flat_map render_arg l ++ rest) a = go rest a' /\ a_path a' = a_path a /\ flush a' = flush a ++ map snd l.
Proof.
  induction 1 as [|[omit [k v]] l Hw _ IH]; intros rest a.
  - exists a. cbn. rewrite app_nil_r. auto.
  - cbn [flat_map render_arg app]. rewrite <- !app_assoc.
    destruct (go_arg omit k v (flat_map render_arg l ++ rest) a Hw) as (a1 & -> & Hp1 & Hf1 & _).
    destruct (IH rest a1) as (a' & -> & Hp & Hf). exists a'. split; [reflexivity|]. split; [congruence|].
    rewrite Hf, Hf1, <- app_assoc. reflexivity.
Qed.

Theorem raw_roundtrip_opt p l tl : no_trailing_bs p -> Forall wf_arg l -> tl_ok tl ->
  parse_raw (render_opt p l ++ tl) = Some (p, map snd l).
Proof.
  intros Hp Hl Htl. unfold parse_raw, render_opt. rewrite <- app_assoc.
  rewrite go_esc by (apply ok_no_trailing_bs, Hp).
  destruct (go_args l Hl tl (fold_left push_char p ps_init)) as (a' & -> & Hpa & Hf).
  rewrite (go_tl _ _ Htl), Hpa, Hf, push_chars. reflexivity.
Qed.

Definition wf_kv (kv : list N * list N) : Prop := no_trailing_bs (fst kv) /\ no_trailing_bs (snd kv).
Lemma wf_plain l : Forall wf_kv l -> Forall wf_arg (map (fun kv => (false, kv)) l).
Proof.
  induction 1 as [|[k v] l [H1 H2] _ IH]; cbn [map]; constructor; auto.
  cbn in *. split; [exact H1|]. split; [exact H2|]. intros; discriminate.
Qed.

Theorem raw_roundtrip p l : no_trailing_bs p -> Forall wf_kv l -> parse_raw (ps_render p l) = Some (p, l).
Proof.
  intros Hp Hl. unfold ps_render. rewrite <- (app_nil_r (render_opt _ _)).
  rewrite raw_roundtrip_opt; [|auto|apply wf_plain; auto|left; auto]. rewrite map_map, map_id. reflexivity.
Qed.

Lemma is_nil_false {A} (l : list A) : l <> [] -> is_nil l = false.
Proof. destruct l; [congruence|reflexivity]. Qed.
Lemma keys_ok l : Forall (fun kv => trim (fst kv) <> []) l -> existsb (fun kv => is_nil (fst kv)) (map trim2 l) = false.
Proof. induction 1 as [|kv l H _ IH]; cbn; auto. rewrite is_nil_false by exact H. exact IH. Qed.
Lemma parse_accepts s p l : parse_raw s = Some (p, l) -> trim p <> [] -> Forall (fun kv => trim (fst kv) <> []) l ->
  parse s = POk (trim p) (map trim2 l).
Proof. intros E Hp Hk. unfold parse. rewrite E, (is_nil_false _ Hp), (keys_ok _ Hk). reflexivity. Qed.

(* C19: what was written is what is parsed, trimmed, in order *)
Theorem spec_roundtrip p l : no_trailing_bs p -> Forall wf_kv l ->
  trim p <> [] -> Forall (fun kv => trim (fst kv) <> []) l ->
  parse (ps_render p l) = POk (trim p) (map trim2 l).
Proof. intros Hp Hl. apply parse_accepts, raw_roundtrip; assumption. Qed.
Theorem spec_roundtrip_opt p l tl : no_trailing_bs p -> Forall wf_arg l -> tl_ok tl ->
  trim p <> [] -> Forall (fun kv => trim (fst kv) <> []) (map snd l) ->
  parse (render_opt p l ++ tl) = POk (trim p) (map trim2 (map snd l)).
Proof. intros Hp Hl Htl. apply parse_accepts, raw_roundtrip_opt; assumption. Qed.

Theorem rejects_empty_path p l : no_trailing_bs p -> Forall wf_kv l -> trim p = [] ->
  parse (ps_render p l) = PErr EMissingPath.
Proof. intros Hp Hl He. unfold parse. rewrite raw_roundtrip by auto. rewrite He. reflexivity. Qed.
Theorem rejects_empty_key p l : no_trailing_bs p -> Forall wf_kv l -> trim p <> [] ->
  Exists (fun kv => trim (fst kv) = []) l -> parse (ps_render p l) = PErr EMissingKey.
Proof.
  intros Hp Hl Hpne He. unfold parse. rewrite raw_roundtrip by auto. rewrite is_nil_false by auto.
  replace (existsb _ _) with true; [reflexivity|]. symmetry. apply existsb_exists.
  apply Exists_exists in He as (kv & Hin & Hkv). exists (trim2 kv). split; [apply in_map; auto|].
  cbn. rewrite Hkv. reflexivity.
Qed.
(* the double-'=' error is decided by the raw scan alone *)
Theorem double_eq_iff_scan_fails s : parse s = PErr EDoubleEq <-> parse_raw s = None.
Proof.
  unfold parse. destruct (parse_raw s) as [[p0 l0]|]; [|tauto]. cbv zeta. split; [|discriminate].
  destruct (is_nil (trim p0)); [discriminate|]. destruct (existsb _ _); discriminate.
Qed.
(* a second unescaped '=' inside one argument is refused, whatever follows *)
Theorem rejects_second_equals p l k v rest : no_trailing_bs p -> Forall wf_kv l -> no_trailing_bs k -> no_trailing_bs v ->
  parse (ps_render p l ++ comma :: esc k ++ eqc :: esc v ++ eqc :: rest) = PErr EDoubleEq.
Proof.
  intros Hp Hl Hk Hv. apply double_eq_iff_scan_fails. unfold parse_raw, ps_render, render_opt.
  rewrite <- app_assoc, go_esc by (apply ok_no_trailing_bs, Hp).
  destruct (go_args _ (wf_plain l Hl) (comma :: esc k ++ eqc :: esc v ++ eqc :: rest) (fold_left push_char p ps_init)) as (a1 & -> & _).
  destruct (go_arg false k v (eqc :: rest) a1) as (a2 & E & _ & _ & Hm); [split; [exact Hk|split; [exact Hv|discriminate]]|].
  cbn [app] in E. rewrite E, go_eq_val by exact Hm. reflexivity.
Qed.
Theorem empty_string_rejected : parse [] = PErr EMissingPath.
Proof. reflexivity. Qed.

(* acceptance is sound for every input string, not only for rendered ones: a non-empty path and no argument with an empty key *)
Theorem accepted_is_wellformed s p l : parse s = POk p l -> p <> [] /\ Forall (fun kv => fst kv <> []) l.
Proof.
  unfold parse. destruct (parse_raw s) as [[p0 l0]|]; [|discriminate]. cbv zeta.
  destruct (is_nil (trim p0)) eqn:Ep; [discriminate|].
  destruct (existsb (fun kv => is_nil (fst kv)) (map trim2 l0)) eqn:Ee; [discriminate|].
  intros H. inversion H; subst. split.
  - intros X. rewrite X in Ep. discriminate.
  - apply not_true_iff_false in Ee. apply Forall_forall. intros kv Hin X. apply Ee, existsb_exists. exists kv. rewrite X. auto.
Qed.
