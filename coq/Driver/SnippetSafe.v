(* No subtraction of SliceFile::get_snippet / get_highlight (slice_file.rs) can go below zero on a span the lexer produces,
   or on a span running from the start of one token to the end of a later one (what the parser and the validators report),
   whatever the text: line feeds, carriage returns before them, tabs, any characters (C01; supports C09 and C14).
   The emitter model (Driver/Emit.v) uses truncated subtraction; `snippet_safe` lists the subtractions whose operands come from the
   span (the two others, of 1 from a count that starts at 1 and of 1 from the length of a constant, are safe as they stand). *)
From Coq Require Import List Bool Arith NArith Lia.
From SliceV Require Import Sema.Lints Driver.Emit Syntax.Tokens Syntax.Lexer Syntax.LexerProofs.
Import ListNotations.
Local Open Scope nat_scope.

(* highlight_start / highlight_end of the line with index i (line number i + 1) *)
Definition hs_of (x : span) (i : nat) : nat := if Nat.eqb (S i) (sp_srow x) then sp_scol x - 1 else 0.
Definition he_of (x : span) (i : nat) (line : str) : nat := if Nat.eqb (S i) (sp_erow x) then sp_ecol x - 1 else length line.
(* `start.row - 1`, `start.col - 1`, `end.col - 1`, the debug assertion `start <= end`, and `highlight_end - highlight_start`
   on every line shown *)
Definition snippet_safe (text : str) (x : span) : Prop :=
  1 <= sp_srow x /\ 1 <= sp_scol x /\ 1 <= sp_ecol x /\
  (sp_srow x < sp_erow x \/ (sp_srow x = sp_erow x /\ sp_scol x <= sp_ecol x)) /\
  forall i line, sp_srow x - 1 <= i < sp_erow x -> nth_error (text_lines text) i = Some line -> hs_of x i <= he_of x i line.

Definition l1 : loc := mkloc 1 1.
Definition pos (p : list N) : loc := adv_all l1 p.
Fixpoint count_nl (p : list N) : nat := match p with [] => 0 | c :: r => (if (c =? 10)%N then 1 else 0) + count_nl r end.
(* the current line so far, last character first *)
Fixpoint seg (p cur : list N) : list N := match p with [] => cur | c :: r => seg r (if (c =? 10)%N then [] else c :: cur) end.

Lemma pos_app a b : pos (a ++ b) = adv_all (pos a) b.
Proof. apply adv_all_app. Qed.
Lemma count_nl_app a b : count_nl (a ++ b) = count_nl a + count_nl b.
Proof. induction a as [|c r IH]; cbn [count_nl app]; [reflexivity|]. rewrite IH. lia. Qed.
Lemma seg_app a b cur : seg (a ++ b) cur = seg b (seg a cur).
Proof. revert cur. induction a as [|c r IH]; intros cur; cbn [seg app]; [reflexivity|]. apply IH. Qed.
Lemma seg_no_nl b : forall cur, count_nl b = 0 -> length (seg b cur) = length cur + length b.
Proof.
  induction b as [|c r IH]; intros cur H; cbn [seg count_nl length] in *; [lia|].
  destruct (c =? 10)%N; [lia|]. rewrite IH by lia. cbn [length]. lia.
Qed.
Lemma adv_all_pos : forall p l cur, l_col l = S (length cur) -> adv_all l p = mkloc (l_row l + count_nl p) (S (length (seg p cur))).
Proof.
  induction p as [|c r IH]; intros l cur H.
  - destruct l as [row col]. cbn in *. rewrite H, Nat.add_0_r. reflexivity.
  - change (adv_all l (c :: r)) with (adv_all (adv l c) r). cbn [seg count_nl]. unfold adv. destruct (c =? 10)%N.
    + rewrite (IH _ []) by reflexivity. cbn [l_row]. f_equal. apply Nat.add_succ_comm.
    + rewrite (IH _ (c :: cur)) by (cbn [l_col length]; f_equal; exact H). reflexivity.
Qed.
Lemma pos_eq p : pos p = mkloc (1 + count_nl p) (S (length (seg p []))).
Proof. unfold pos. rewrite (adv_all_pos p l1 []) by reflexivity. reflexivity. Qed.

(* the one position whose column lies beyond its line as displayed: between a carriage return and the line feed after it *)
Definition bad_start (cur rest : list N) : bool :=
  match rest, cur with c :: _, x :: _ => (c =? 10)%N && (x =? 13)%N | _, _ => false end.
Lemma lines_head : forall rest cur line, nth_error (lines_aux rest cur) 0 = Some line -> length cur <= length line + (if bad_start cur rest then 1 else 0).
Proof.
  induction rest as [|c r IH]; intros cur line; cbn [lines_aux].
  - destruct cur as [|x cur']; [discriminate|]. intros E. injection E as <-. rewrite <- (rev_length (x :: cur')). apply Nat.le_add_r.
  - unfold bad_start. destruct (c =? 10)%N.
    + cbn [nth_error]. intros E. injection E as <-. rewrite rev_length. destruct cur as [|x cur']; [apply Nat.le_0_l|].
      destruct (x =? 13)%N; cbn [andb length]; [rewrite Nat.add_1_r; apply le_n|apply Nat.le_add_r].
    + (* c is no line feed and joins the current line: cur is not at a bad start, and the line is longer than c :: cur less the 1
         that a bad start further on may add *)
      intros H. apply IH in H. cbn [length] in H. destruct cur; cbn [andb]; destruct (bad_start _ _) in H; lia.
Qed.
Lemma lines_at : forall p cur rest line, nth_error (lines_aux (p ++ rest) cur) (count_nl p) = Some line ->
  length (seg p cur) <= length line + (if bad_start (seg p cur) rest then 1 else 0).
Proof.
  induction p as [|c r IH]; intros cur rest line; cbn [app count_nl seg lines_aux]; [apply lines_head|].
  destruct (c =? 10)%N; cbn [Nat.add nth_error]; apply IH.
Qed.

Definition good_at (p rest : list N) : bool := negb (bad_start (seg p []) rest).
Definition span_of (f : str) (a b : loc) : span := {| sp_file := f; sp_srow := l_row a; sp_scol := l_col a; sp_erow := l_row b; sp_ecol := l_col b |}.

(* rows and columns as numbers: on its first line a span must not begin beyond its end, or beyond the line when it ends further down *)
Lemma safe_rows f text a b u v : (b = 0 -> u <= v) -> (forall line, b <> 0 -> nth_error (text_lines text) a = Some line -> u <= length line) ->
  snippet_safe text (span_of f (mkloc (1 + a) (S u)) (mkloc (1 + (a + b)) (S v))).
Proof.
  intros H0 H1. unfold snippet_safe, span_of, hs_of, he_of. cbn [sp_srow sp_scol sp_erow sp_ecol l_row l_col Nat.add Nat.sub Nat.eqb].
  rewrite !Nat.sub_0_r. repeat (split; [apply le_n_S, Nat.le_0_l|]). split.
  - destruct b; [right; rewrite Nat.add_0_r; split; [reflexivity|apply le_n_S, H0; reflexivity]|left; lia].
  - intros i line Hi Hl. destruct (Nat.eqb_spec i a) as [->|_]; [|apply Nat.le_0_l].
    destruct (Nat.eqb_spec a (a + b)) as [E|E]; [apply H0; lia|apply (H1 line); [lia|exact Hl]].
Qed.
Theorem snippet_safe_span f p1 p2 rest : count_nl p2 = 0 \/ good_at p1 (p2 ++ rest) = true ->
  snippet_safe (p1 ++ p2 ++ rest) (span_of f (pos p1) (pos (p1 ++ p2))).
Proof.
  intros H. rewrite !pos_eq, count_nl_app, seg_app. apply safe_rows.
  - intros E. rewrite (seg_no_nl p2 _ E). apply Nat.le_add_r.
  - intros line Hb Hl. destruct H as [E|G]; [contradiction|]. apply lines_at in Hl. cbn [seg] in Hl.
    unfold good_at in G. apply negb_true_iff in G. rewrite G, Nat.add_0_r in Hl. exact Hl.
Qed.
Theorem snippet_safe_between f p1 p2 rest : good_at p1 (p2 ++ rest) = true ->
  snippet_safe (p1 ++ p2 ++ rest) (span_of f (pos p1) (pos (p1 ++ p2))).
Proof. intros G. apply snippet_safe_span. right. exact G. Qed.

(* a span of no width (what the preprocessor reports at the end of a directive that ends too early or of a file that leaves a region
   open) is safe at every position, also between a carriage return and its line feed *)
Theorem snippet_safe_zero_width f p rest : snippet_safe (p ++ rest) (span_of f (pos p) (pos p)).
Proof. pose proof (snippet_safe_span f p [] rest (or_introl eq_refl)) as H. rewrite app_nil_r in H. exact H. Qed.

Definition extends (p q : list N) : Prop := exists m, q = p ++ m.
(* from the end of the prefix p of the text to the end of its prefix q, beginning where a snippet may begin *)
Definition tok_span_ok (text p : list N) (s e : loc) (q : list N) : Prop :=
  exists m rest, q = p ++ m /\ text = q ++ rest /\ s = pos p /\ e = pos q /\ good_at p (m ++ rest) = true.
Fixpoint toks_from (text n : list N) (ts : list ptok) : Prop :=
  match ts with [] => True | (s, _, e) :: ts' => exists p q, extends n p /\ tok_span_ok text p s e q /\ toks_from text q ts' end.
Definition err_from (text n : list N) (er : option plexerr) : Prop :=
  match er with Some (s, _, e) => exists p q, extends n p /\ tok_span_ok text p s e q | None => True end.
Definition res_ok (text n : list N) (r : list ptok * option plexerr * bool) : Prop :=
  toks_from text n (fst (fst r)) /\ err_from text n (snd (fst r)).

Lemma extends_refl p : extends p p.
Proof. exists []. symmetry. apply app_nil_r. Qed.
Lemma extends_trans a b c : extends a b -> extends b c -> extends a c.
Proof. intros [m ->] [k ->]. exists (m ++ k). symmetry. apply app_assoc. Qed.
Lemma toks_from_le text n m ts : extends m n -> toks_from text n ts -> toks_from text m ts.
Proof. intros L H. destruct ts as [|[[s t] e] ts]; [exact I|]. destruct H as (p & q & H1 & H2). exists p, q. split; [exact (extends_trans _ _ _ L H1)|exact H2]. Qed.
Lemma err_from_le text n m er : extends m n -> err_from text n er -> err_from text m er.
Proof. intros L H. destruct er as [[[s x] e]|]; [|exact I]. destruct H as (p & q & H1 & H2). exists p, q. split; [exact (extends_trans _ _ _ L H1)|exact H2]. Qed.
Lemma res_ok_le text n m r : extends m n -> res_ok text n r -> res_ok text m r.
Proof. intros L [H1 H2]. split; [eapply toks_from_le|eapply err_from_le]; eassumption. Qed.
Lemma span_here text p w rest : text = p ++ w ++ rest -> good_at p (w ++ rest) = true -> tok_span_ok text p (pos p) (adv_all (pos p) w) (p ++ w).
Proof. intros E G. exists w, rest. rewrite pos_app, <- app_assoc. repeat split; assumption. Qed.

(* a token read as w at p, put before a result that is in order from the end of w on *)
Lemma emit_ok text p w rest t r : text = p ++ w ++ rest -> good_at p (w ++ rest) = true -> res_ok text (p ++ w) r ->
  res_ok text p (emit (pos p) (Some t) (adv_all (pos p) w) r).
Proof.
  intros E G [H1 H2]. destruct r as [[ts er] a]. split; cbn [emit fst snd] in *.
  - exists p, (p ++ w). split; [apply extends_refl|]. split; [exact (span_here text p w rest E G)|exact H1].
  - exact (err_from_le text _ _ _ (ex_intro _ w eq_refl) H2).
Qed.
Lemma good_first p c r : (c =? 10)%N = false -> good_at p (c :: r) = true.
Proof. intros H. unfold good_at, bad_start. rewrite H. destruct (seg p []); reflexivity. Qed.
Lemma good_after_slash p w rest : good_at (p ++ w ++ [47%N]) rest = true.
Proof. unfold good_at. rewrite app_assoc, seg_app. cbn [seg N.eqb Pos.eqb]. unfold bad_start. destruct rest; [reflexivity|]. cbn. rewrite andb_false_r. reflexivity. Qed.

Section Step.
  Variables (text post : list N) (rec : bool -> loc -> list N -> list ptok * option plexerr * bool).
  Hypothesis Hrec : forall attr p body, text = p ++ body ++ post -> res_ok text p (rec attr (pos p) body).

  Lemma skip_ok attr p w rest : text = p ++ (w ++ rest) ++ post -> res_ok text p (rec attr (adv_all (pos p) w) rest).
  Proof.
    intros E. rewrite <- pos_app. apply (res_ok_le text (p ++ w)); [exists w; reflexivity|].
    apply Hrec. rewrite E, <- !app_assoc. reflexivity.
  Qed.
  (* what a step reads and what it reports begins at the current position, where no line feed stands, or, for a doc comment, after a slash.
     `Go w0 w t a rest`: the step passes over w0, reads w as the token t (or as nothing) and leaves rest to be lexed with attribute state a;
     `Halt t er a`: lexing ends; the token t, if there is one, is all of s, and the error er, if there is one, lies on a prefix of s *)
  Lemma run_spans p s st : text = p ++ s ++ post -> good_at p (s ++ post) = true -> fits s st -> res_ok text p (run rec (pos p) s st).
  Proof.
    intros E G F. destruct st as [w0 w t a rest|t er a]; cbn [fits run] in *.
    - (* past w0 the step reads w at p ++ w0, and what is in order from there is in order from p *)
      destruct F as (-> & _ & Hs). rewrite <- !app_assoc in E, G. rewrite <- (pos_app p w0).
      apply (res_ok_le text (p ++ w0)); [exists w0; reflexivity|].
      assert (E' : text = (p ++ w0) ++ w ++ rest ++ post) by (rewrite E, <- app_assoc; reflexivity).
      destruct t as [t|].
      + (* w is a token: it begins where p does, or after a slash *)
        apply (emit_ok text (p ++ w0) w (rest ++ post)); [exact E'| |].
        * destruct Hs as [->|[x ->]]; [rewrite app_nil_r; exact G|apply good_after_slash].
        * rewrite <- pos_app. apply Hrec. rewrite E', <- !app_assoc. reflexivity.
      + (* w is passed over *) apply skip_ok. rewrite E', <- !app_assoc. reflexivity.
    - split; cbn [fst snd].
      + destruct t as [t|]; [|exact I]. exists p, (p ++ s). split; [apply extends_refl|]. split; [exact (span_here text p s post E G)|exact I].
      + destruct er as [[x w]|]; [|exact I]. destruct F as [rest ->]. rewrite <- app_assoc in E, G.
        exists p, (p ++ w). split; [apply extends_refl|exact (span_here text p w (rest ++ post) E G)].
  Qed.
  Lemma lex_step_spans attr p body : text = p ++ body ++ post -> res_ok text p (lex_step rec attr (pos p) body).
  Proof.
    intros E. destruct body as [|c r]; [split; exact I|]. destruct (N.eqb_spec c 10) as [->|Enl].
    - apply (skip_ok attr p [10%N] r), E.
    - rewrite lex_step_run. apply run_spans; [exact E|apply good_first, N.eqb_neq, Enl|apply lex_step1_fits].
  Qed.
End Step.
Theorem lex_block_spans text post : forall fuel attr p body, text = p ++ body ++ post -> res_ok text p (lex_block fuel attr (pos p) body).
Proof.
  induction fuel as [|f IH]; intros attr p body E; [split; exact I|].
  change (lex_block (S f) attr (pos p) body) with (lex_step (lex_block f) attr (pos p) body). apply (lex_step_spans text post); [exact IH|exact E].
Qed.

Lemma span_join text p1 s1 e1 q1 p2 s2 e2 q2 : tok_span_ok text p1 s1 e1 q1 -> tok_span_ok text p2 s2 e2 q2 -> extends q1 p2 -> tok_span_ok text p1 s1 e2 q2.
Proof.
  intros (m1 & r1 & -> & E1 & S1 & _ & G1) (m2 & r2 & -> & E2 & _ & S2 & _) [m ->].
  exists (m1 ++ m ++ m2), r2. rewrite <- !app_assoc in *. repeat split; try assumption.
  (* both spans lie in the same text, so what follows the first one is known *)
  rewrite E1 in E2. do 2 apply app_inv_head in E2. rewrite <- E2. exact G1.
Qed.
Lemma toks_from_in text : forall ts n s t e, toks_from text n ts -> In (s, t, e) ts -> exists p q, extends n p /\ tok_span_ok text p s e q.
Proof.
  induction ts as [|[[s0 t0] e0] ts IH]; intros n s t e H Hin; [destruct Hin|]. destruct H as (p & q & Hn & Hs & Hr).
  destruct Hin as [Heq|Hin]; [injection Heq as <- _ <-; eauto|].
  destruct (IH _ _ _ _ Hr Hin) as (p' & q' & L & Hok). exists p', q'. split; [|exact Hok]. destruct Hs as (m & _ & -> & _).
  exact (extends_trans _ _ _ Hn (extends_trans _ _ _ (ex_intro _ m eq_refl) L)).
Qed.
Lemma toks_from_pair text : forall ts1 n s1 t1 e1 ts2 s2 t2 e2 ts3, toks_from text n (ts1 ++ (s1, t1, e1) :: ts2 ++ (s2, t2, e2) :: ts3) ->
  exists p q, tok_span_ok text p s1 e2 q.
Proof.
  induction ts1 as [|[[s0 t0] e0] ts1 IH]; intros n s1 t1 e1 ts2 s2 t2 e2 ts3 H; destruct H as (p & q & _ & Hs & Hr); [|exact (IH _ _ _ _ _ _ _ _ _ Hr)].
  destruct (toks_from_in text _ _ s2 t2 e2 Hr) as (p2 & q2 & L & Hok); [apply in_or_app; right; left; reflexivity|].
  exists p, q2. exact (span_join _ _ _ _ _ _ _ _ _ Hs Hok L).
Qed.

Lemma tok_span_safe f text p s e q : tok_span_ok text p s e q -> snippet_safe text (span_of f s e).
Proof. intros (m & rest & -> & -> & -> & -> & G). rewrite <- app_assoc. apply snippet_safe_between, G. Qed.

(* C01: every token of a block of the file (a stretch of the text, lexed from the position the text puts it at), every lexical error,
   and every stretch from the start of a token to the end of a later token of the block is snippet_safe *)
Theorem lexed_spans_render_safely f pre body post fuel attr ts er a :
  lex_block fuel attr (pos pre) body = (ts, er, a) ->
  (forall s t e, In (s, t, e) ts -> snippet_safe (pre ++ body ++ post) (span_of f s e)) /\
  (forall ts1 s1 t1 e1 ts2 s2 t2 e2 ts3, ts = ts1 ++ (s1, t1, e1) :: ts2 ++ (s2, t2, e2) :: ts3 -> snippet_safe (pre ++ body ++ post) (span_of f s1 e2)) /\
  (forall s x e, er = Some (s, x, e) -> snippet_safe (pre ++ body ++ post) (span_of f s e)).
Proof.
  intros E. pose proof (lex_block_spans (pre ++ body ++ post) post fuel attr pre body eq_refl) as [H1 H2]. rewrite E in H1, H2. cbn [fst snd] in H1, H2.
  split; [|split].
  - intros s t e Hin. destruct (toks_from_in _ _ _ _ _ _ H1 Hin) as (a0 & b & _ & Hok). exact (tok_span_safe f _ _ _ _ _ Hok).
  - intros ts1 s1 t1 e1 ts2 s2 t2 e2 ts3 ->. destruct (toks_from_pair _ _ _ _ _ _ _ _ _ _ _ H1) as (a0 & b & Hok). exact (tok_span_safe f _ _ _ _ _ Hok).
  - intros s x e ->. destruct H2 as (a0 & b & _ & Hok). exact (tok_span_safe f _ _ _ _ _ Hok).
Qed.

(* a CRLF text whose doc comment is empty: its token starts on the carriage return *)
Example crlf_doc_comment_is_safe :
  let text := [47; 47; 47; 13; 10; 109; 13; 10]%N in
  exists ts, lex_block 20 false (pos []) text = (ts, None, false) /\ length ts = 2 /\
             forall s t e, In (s, t, e) ts -> snippet_safe text (span_of [] s e).
Proof.
  cbv zeta. eassert (E : lex_block 20 false (pos []) [47; 47; 47; 13; 10; 109; 13; 10]%N = (_, None, false)) by (vm_compute; reflexivity).
  eexists. split; [exact E|]. split; [reflexivity|].
  pose proof (proj1 (lexed_spans_render_safely [] [] _ [] _ _ _ _ _ E)) as H. rewrite app_nil_r in H. exact H.
Qed.
