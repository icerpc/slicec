(* Order independence of what is counted and decided from the diagnostics (C15): the numbers of warnings and errors, whether
   generators run and the exit status are the same for every order in which the diagnostics were reported. *)
From Coq Require Import List Bool Permutation.
From SliceV Require Import Sema.Lints Driver.Main.
Import ListNotations.
Local Open Scope nat_scope.

Lemma filter_perm {A} (f : A -> bool) l l' : Permutation l l' -> Permutation (filter f l) (filter f l').
Proof.
  induction 1 as [|x l l' _ IH|x y l|l l' l'' _ IH1 _ IH2]; cbn [filter].
  - constructor.
  - destruct (f x); [constructor|]; exact IH.
  - destruct (f x), (f y); try apply Permutation_refl; apply perm_swap.
  - eapply Permutation_trans; eassumption.
Qed.
Theorem totals_order_independent c ds ds' : Permutation ds ds' -> totals c ds = totals c ds'.
Proof. intros H. unfold totals. f_equal; apply Permutation_length, filter_perm, H. Qed.
Theorem levels_order_independent c ds ds' : Permutation ds ds' -> Permutation (map (level_of c) ds) (map (level_of c) ds').
Proof. apply Permutation_map. Qed.
Lemma existsb_perm {A} (f : A -> bool) l l' : Permutation l l' -> existsb f l = existsb f l'.
Proof.
  induction 1 as [|x l l' _ IH|x y l|l l' l'' _ IH1 _ IH2]; cbn [existsb]; [reflexivity|f_equal; exact IH| |congruence].
  rewrite !orb_assoc, (orb_comm (f y)). reflexivity.
Qed.
Definition with_diags (c : run_config) (ds : list diag) : run_config :=
  {| rc_diags := ds; rc_ctx := rc_ctx c; rc_dry_run := rc_dry_run c; rc_generators := rc_generators c; rc_fs := rc_fs c |}.
Theorem outcome_order_independent c ds' : Permutation (rc_diags c) ds' ->
  generation_runs (with_diags c ds') = generation_runs c /\ gen_results (with_diags c ds') = gen_results c /\ exit_status (with_diags c ds') = exit_status c.
Proof.
  intros H.
  assert (G : generation_runs (with_diags c ds') = generation_runs c).
  { unfold generation_runs, has_errors. cbn [rc_diags rc_dry_run with_diags]. rewrite (existsb_perm is_error _ _ H). reflexivity. }
  assert (R : gen_results (with_diags c ds') = gen_results c) by (unfold gen_results; rewrite G; reflexivity).
  split; [exact G|split; [exact R|]]. unfold exit_status, error_count. rewrite R. cbn [rc_ctx rc_diags with_diags].
  rewrite (totals_order_independent (rc_ctx c) _ _ (Permutation_sym H)). reflexivity.
Qed.
