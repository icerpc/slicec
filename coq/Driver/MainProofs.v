From Coq Require Import List Bool ZArith Lia.
From SliceV Require Import Codec.Wire Codec.Reply Codec.PrefixProofs Sema.Lints Sema.LintsProofs Driver.Main.
Import ListNotations.
Local Open Scope nat_scope.

Lemma has_errors_iff ds : has_errors ds = true <-> exists d, In d ds /\ d_lint d = None.
Proof.
  unfold has_errors. rewrite existsb_exists. split; intros (d & Hd & H); exists d; split; auto; unfold is_error in *; destruct (d_lint d); auto; discriminate.
Qed.
Lemma no_errors_iff ds : has_errors ds = false <-> forall d, In d ds -> d_lint d <> None.
Proof.
  rewrite <- not_true_iff_false, has_errors_iff. split; [intros H d Hd E; apply H; exists d; auto|intros H (d & Hd & E); exact (H d Hd E)].
Qed.
(* the number of error-level diagnostics after suppression = the number of error diagnostics before it *)
Lemma error_total_is_count c ds : snd (totals c ds) = length (filter is_error ds).
Proof. unfold totals. cbn [snd]. f_equal. apply filter_ext. intros d. apply is_error_iff. Qed.
Lemma has_errors_count ds : has_errors ds = true <-> length (filter is_error ds) <> 0.
Proof.
  unfold has_errors. induction ds as [|d ds IH]; cbn [existsb filter]; [split; [discriminate|intros H; contradiction H; reflexivity]|].
  destruct (is_error d); cbn [orb length]; [split; [discriminate|reflexivity]|exact IH].
Qed.
Lemma add_nonzero a b : a + b <> 0 <-> a <> 0 \/ b <> 0.
Proof. lia. Qed.
Lemma sum_nonzero {A} (f : A -> nat) l : fold_right (fun x n => f x + n) 0 l <> 0 <-> Exists (fun x => f x <> 0) l.
Proof.
  induction l as [|x l IH]; cbn [fold_right]; [rewrite Exists_nil; split; [intros H; apply H; reflexivity|intros []]|].
  rewrite add_nonzero, IH, Exists_cons. reflexivity.
Qed.

(* C07: generators run exactly after an error-free compilation without --dry-run; lints, suppressed or not, never prevent generation *)
Theorem generation_iff c : generation_runs c = true <-> (forall d, In d (rc_diags c) -> d_lint d <> None) /\ rc_dry_run c = false.
Proof. unfold generation_runs. rewrite andb_true_iff, !negb_true_iff, no_errors_iff. reflexivity. Qed.
Theorem nothing_started_otherwise c : generation_runs c = false -> gen_results c = [].
Proof. intros H. unfold gen_results. rewrite H. reflexivity. Qed.
Theorem generation_independent_of_suppression c ctx' :
  generation_runs {| rc_diags := rc_diags c; rc_ctx := ctx'; rc_dry_run := rc_dry_run c; rc_generators := rc_generators c; rc_fs := rc_fs c |} = generation_runs c.
Proof. reflexivity. Qed.
(* the exit status is non-zero exactly when an error was reported: by compilation, by a failing generator or by a failed write *)
Theorem exit_status_iff c : exit_status c <> 0 <->
  has_errors (rc_diags c) = true \/ (generation_runs c = true /\ exists r, In r (gen_results c) /\ gen_errors r <> 0).
Proof.
  assert (E : exit_status c <> 0 <-> error_count c <> 0) by (unfold exit_status; destruct (Nat.eqb_spec (error_count c) 0); intuition congruence).
  unfold error_count in E. rewrite E, error_total_is_count, add_nonzero, <- has_errors_count, sum_nonzero, Exists_exists. unfold gen_results. destruct (generation_runs c).
  - split; (intros [H|H]; [left; exact H|right]); [split; [reflexivity|exact H]|exact (proj2 H)].
  - split; [intros [H|(r & [] & _)]|intros [H|[H _]]; [|discriminate H]]; left; exact H.
Qed.

Lemma nth_error_replace {A} (l : list A) b : forall i j, j <> i -> i < length l -> nth_error (firstn i l ++ b :: skipn (S i) l) j = nth_error l j.
Proof.
  induction l as [|x l IH]; intros i j Hj Hi; [inversion Hi|]. destruct i as [|i], j as [|j]; cbn [firstn skipn app nth_error]; try reflexivity; [contradiction Hj; reflexivity|].
  apply IH; [intros E; apply Hj; f_equal; exact E|apply Nat.succ_lt_mono, Hi].
Qed.
(* C18: when generation runs, the results are those of the generators taken one by one, in the order given; so putting another
   behaviour in the place of one generator leaves the results at all other places as they were *)
Theorem generators_independent c : generation_runs c = true -> gen_results c = map (run_generator (rc_fs c)) (rc_generators c).
Proof. intros H. unfold gen_results. rewrite H. reflexivity. Qed.
Theorem other_generators_unaffected fs gs i b : forall j, j <> i ->
  nth_error (map (run_generator fs) (firstn i gs ++ b :: skipn (S i) gs)) j = nth_error (map (run_generator fs) gs) j \/ length gs <= i.
Proof.
  intros j Hj. destruct (Nat.le_gt_cases (length gs) i) as [Hle|Hlt]; [right; exact Hle|left].
  rewrite !nth_error_map. f_equal. apply nth_error_replace; assumption.
Qed.
Lemma run_generator_cases fs b : (exists e, run_generator fs b = failed e) \/
  exists out files diags rest, b = BRuns true false (Some 0%Z) out /\ dec_reply out = DOk (files, diags) rest /\
    run_generator fs b = {| gr_error := None; gr_files := map (fun f => (f, fs f)) files; gr_messages := map gd_message diags |}.
Proof.
  destruct b as [|[|] [|] [c|] out]; cbn [run_generator]; try (left; eexists; reflexivity).
  destruct (Z.eqb_spec c 0) as [->|_]; [|left; eexists; reflexivity].
  destruct (dec_reply out) as [[files diags] rest|e] eqn:E; [right; exists out, files, diags, rest; auto|left; eexists; reflexivity].
Qed.
(* a generator that fails in any way yields exactly one error for it, writes nothing and prints nothing *)
Theorem failing_generator_reported fs b r : r = run_generator fs b -> gr_error r <> None -> gr_files r = [] /\ gr_messages r = [] /\ gen_errors r = 1.
Proof.
  intros -> H. destruct (run_generator_cases fs b) as [[e E]|(out & files & diags & rest & _ & _ & E)]; rewrite E in *; [repeat split; reflexivity|contradiction H; reflexivity].
Qed.
(* files are written only when the generator started, took the request, kept stderr empty, exited with status 0 and its output
   decodes: then exactly the decoded ones, in order *)
Theorem files_only_from_decoded_reply fs b : gr_files (run_generator fs b) <> [] ->
  exists out files diags rest, b = BRuns true false (Some 0%Z) out /\ dec_reply out = DOk (files, diags) rest /\
    gr_files (run_generator fs b) = map (fun f => (f, fs f)) files.
Proof.
  intros H. destruct (run_generator_cases fs b) as [[e E]|(out & files & diags & rest & Eb & Ed & E)]; rewrite E in *; [contradiction H; reflexivity|].
  exists out, files, diags, rest. auto.
Qed.

(* a generator that exits normally after writing only a strict prefix of (the consumed part of) a valid reply is reported
   with a decoding error and nothing of the prefix is written: a reply is never half-trusted *)
Theorem truncated_reply_reported fs out v r k : dec_reply out = DOk v r -> k < length out - length r ->
  exists e, run_generator fs (BRuns true false (Some 0%Z) (firstn k out)) = failed (GeDecode e) /\ e <> EFuel.
Proof.
  intros H Hk. destruct (truncated_reply_rejected _ _ _ H k Hk) as (e & He & Hne). exists e. split; [|exact Hne].
  cbn [run_generator]. cbn. rewrite He. reflexivity.
Qed.

(* C07 from the side of what must not happen: any generator result (write attempt, printed message, generator error) presupposes
   an error-free compilation without --dry-run *)
Theorem file_written_only_after_clean_compile c r : In r (gen_results c) ->
  has_errors (rc_diags c) = false /\ rc_dry_run c = false.
Proof.
  unfold gen_results, generation_runs. destruct (has_errors (rc_diags c)), (rc_dry_run c); try contradiction. auto.
Qed.
Theorem one_error_stops_everything c d : In d (rc_diags c) -> d_lint d = None -> gen_results c = [] /\ exit_status c = 1.
Proof.
  intros Hin E. assert (HE : has_errors (rc_diags c) = true) by (apply has_errors_iff; eauto). split.
  - apply nothing_started_otherwise. unfold generation_runs. rewrite HE. reflexivity.
  - assert (X : exit_status c <> 0) by (apply exit_status_iff; auto). unfold exit_status in *. destruct (Nat.eqb (error_count c) 0); congruence.
Qed.
Theorem warnings_only_status c : (forall d, In d (rc_diags c) -> d_lint d <> None) ->
  exit_status c = 0 <-> (rc_dry_run c = true \/ forall r, In r (gen_results c) -> gen_errors r = 0).
Proof.
  intros W. pose proof (proj2 (no_errors_iff _) W) as HE.
  rewrite <- Nat.eq_dne, exit_status_iff. unfold generation_runs. rewrite HE. destruct (rc_dry_run c); cbn [negb andb].
  - split; [left; reflexivity|intros _ [H|[H _]]; discriminate H].
  - split.
    + intros N. right. intros r Hr. apply Nat.eq_dne. intros Nr. apply N. right. split; [reflexivity|]. exists r. auto.
    + intros [H|H] [X|(_ & r & Hr & Nr)]; try discriminate. exact (Nr (H r Hr)).
Qed.
