From Coq Require Import List Bool Arith Lia.
From SliceV Require Import Base.ListFacts Doc.Comment Driver.Files.
Import ListNotations.
Local Open Scope nat_scope.

Lemma fold_pair_flat {A B C} (step : list B * list C -> A -> list B * list C) (f : A -> list B * list C) :
  (forall acc x, step acc x = (fst acc ++ fst (f x), snd acc ++ snd (f x))) ->
  forall l acc, fold_left step l acc = (fst acc ++ flat_map (fun x => fst (f x)) l, snd acc ++ flat_map (fun x => snd (f x)) l).
Proof.
  intros H. induction l as [|x l IH]; intros [a d]; cbn [fold_left flat_map fst snd]; [rewrite !app_nil_r; reflexivity|].
  rewrite H, IH. cbn [fst snd]. rewrite <- !app_assoc. reflexivity.
Qed.
Lemma fold_left_ext {A B} (f g : A -> B -> A) : (forall a x, f a x = g a x) -> forall l a, fold_left f l a = fold_left g l a.
Proof. intros H. induction l as [|x l IH]; intros a; cbn [fold_left]; [reflexivity|]. rewrite H. apply IH. Qed.
Lemma NoDup_map_filter {A B} (f : A -> B) p l : NoDup (map f l) -> NoDup (map f (filter p l)).
Proof.
  induction l as [|x l IH]; cbn [filter map]; intros N; [constructor|]. inversion N as [|? ? Hn N']; subst.
  destruct (p x); [|exact (IH N')]. cbn [map]. constructor; [|exact (IH N')].
  intros H. apply Hn. apply in_map_iff in H as (y & E & Hy). apply filter_In in Hy as [Hy _]. rewrite <- E. apply in_map, Hy.
Qed.

(* specification: keep the first spelling of every file, report every later one *)
Fixpoint firsts (seen : list nat) (l : list fpath) : list fpath :=
  match l with [] => [] | x :: r => if existsb (Nat.eqb (fp_id x)) seen then firsts seen r else x :: firsts (fp_id x :: seen) r end.
Fixpoint repeats (seen : list nat) (l : list fpath) : list fdiag :=
  match l with [] => [] | x :: r => if existsb (Nat.eqb (fp_id x)) seen then DDuplicate (fp_path x) :: repeats seen r else repeats (fp_id x :: seen) r end.
Lemma existsb_eqb_in n l : existsb (Nat.eqb n) l = true <-> In n l.
Proof. apply (existsb_eqb_In Nat.eqb Nat.eqb_eq). Qed.
Lemma known_iff l x : known l x = true <-> In (fp_id x) (map fp_id l).
Proof.
  unfold known. rewrite existsb_exists, in_map_iff. split; intros (y & H1 & H2); exists y; [apply Nat.eqb_eq in H2|apply Nat.eqb_eq in H1]; auto.
Qed.
(* the loops look the identities up among the files kept so far, the specification in a list of identities seen: the same set *)
Definition same_ids (seen : list nat) (acc : list fpath) : Prop := forall n, In n seen <-> In n (map fp_id acc).
Lemma known_seen seen acc x : same_ids seen acc -> known acc x = existsb (Nat.eqb (fp_id x)) seen.
Proof. intros H. apply eq_true_iff_eq. rewrite known_iff, existsb_eqb_in. symmetry. apply H. Qed.
Lemma same_ids_snoc seen acc x : same_ids seen acc -> same_ids (fp_id x :: seen) (acc ++ [x]).
Proof. intros H n. rewrite map_app, in_app_iff, <- (H n). cbn. tauto. Qed.
Lemma dedup_gen l : forall acc ds seen, same_ids seen acc ->
  fold_left (fun acc x => if known (fst acc) x then (fst acc, snd acc ++ [DDuplicate (fp_path x)]) else (fst acc ++ [x], snd acc)) l (acc, ds)
  = (acc ++ firsts seen l, ds ++ repeats seen l).
Proof.
  induction l as [|x l IH]; intros acc ds seen H; cbn [fold_left firsts repeats fst snd]; [rewrite !app_nil_r; reflexivity|].
  rewrite (known_seen seen acc x H). destruct (existsb (Nat.eqb (fp_id x)) seen).
  - rewrite (IH _ _ seen H), <- app_assoc. reflexivity.
  - rewrite (IH _ _ _ (same_ids_snoc seen acc x H)), <- app_assoc. reflexivity.
Qed.
Theorem dedup_spec l : dedup l = (firsts [] l, repeats [] l).
Proof. apply (dedup_gen l [] [] []). intros n. reflexivity. Qed.
Lemma firsts_in l : forall seen x, In x (firsts seen l) -> ~ In (fp_id x) seen /\ In x l.
Proof.
  induction l as [|y l IH]; intros seen x; cbn [firsts]; [intros []|]. destruct (existsb (Nat.eqb (fp_id y)) seen) eqn:K.
  - intros H. destruct (IH _ _ H). split; [assumption|right; assumption].
  - intros [<-|H]; [split; [rewrite <- existsb_eqb_in, K; discriminate|left; reflexivity]|].
    destruct (IH _ _ H) as [Hn Hin]. split; [intros X; apply Hn; right; exact X|right; exact Hin].
Qed.
Lemma firsts_NoDup l : forall seen, NoDup (map fp_id (firsts seen l)).
Proof.
  induction l as [|y l IH]; intros seen; cbn [firsts]; [constructor|]. destruct (existsb (Nat.eqb (fp_id y)) seen); [apply IH|].
  cbn [map]. constructor; [|apply IH]. intros H. apply in_map_iff in H as (x & E & Hx). apply (proj1 (firsts_in _ _ _ Hx)). left. symmetry. exact E.
Qed.
Lemma firsts_complete l : forall seen id, In id (map fp_id l) -> ~ In id seen -> In id (map fp_id (firsts seen l)).
Proof.
  induction l as [|y l IH]; intros seen id Hin Hn; [contradiction|]. cbn [firsts]. destruct (existsb (Nat.eqb (fp_id y)) seen) eqn:K.
  - destruct Hin as [<-|Hin]; [destruct Hn; apply existsb_eqb_in, K|exact (IH _ _ Hin Hn)].
  - destruct (Nat.eq_dec (fp_id y) id) as [E|E]; [left; exact E|right]. destruct Hin as [Hin|Hin]; [destruct (E Hin)|]. apply IH; [exact Hin|]. intros [X|X]; [exact (E X)|exact (Hn X)].
Qed.
Lemma repeats_count l : forall seen, length (firsts seen l) + length (repeats seen l) = length l.
Proof.
  induction l as [|x l IH]; intros seen; cbn [firsts repeats]; [reflexivity|].
  destruct (existsb _ seen); cbn [length Nat.add]; rewrite <- ?plus_n_Sm, IH; reflexivity.
Qed.

Lemma merge_gen refs : forall acc seen, same_ids seen acc ->
  fold_left (fun acc x => if known acc x then acc else acc ++ [x]) refs acc = acc ++ firsts seen refs.
Proof.
  induction refs as [|x l IH]; intros acc seen H; cbn [fold_left firsts]; [rewrite app_nil_r; reflexivity|].
  rewrite (known_seen seen acc x H). destruct (existsb (Nat.eqb (fp_id x)) seen); [apply IH, H|].
  rewrite (IH _ _ (same_ids_snoc seen acc x H)), <- app_assoc. reflexivity.
Qed.
Lemma fold_partition {A B} (p : A -> bool) (g : A -> B) l : forall acc ds,
  fold_left (fun acc x => if p x then (fst acc ++ [x], snd acc) else (fst acc, snd acc ++ [g x])) l (acc, ds)
  = (acc ++ filter p l, ds ++ map g (filter (fun x => negb (p x)) l)).
Proof.
  induction l as [|x l IH]; intros acc ds; cbn [fold_left filter map fst snd]; [rewrite !app_nil_r; reflexivity|].
  destruct (p x); cbn [negb map]; rewrite IH, <- app_assoc; reflexivity.
Qed.
(* the first spelling of every source, then of every reference that is none of the sources *)
Definition kept (S R : list fpath) : list fpath := firsts [] S ++ firsts (map fp_id (firsts [] S)) (firsts [] R).
Lemma resolve_files_eq fuel fs sources references :
  let S := find_slice_files fuel fs sources true in
  let R := find_slice_files fuel fs references false in
  let all := kept (fst S) (fst R) in
  resolve_files fuel fs sources references =
  {| rs_files := filter (fun x => readable fs (fp_path x)) all;
     rs_diags := snd S ++ repeats [] (fst S) ++ snd R ++ repeats [] (fst R) ++
                 map (fun x => DUnreadable (fp_path x)) (filter (fun x => negb (readable fs (fp_path x))) all) |}.
Proof.
  cbn zeta. unfold resolve_files, kept.
  destruct (find_slice_files fuel fs sources true) as [s d1]. destruct (find_slice_files fuel fs references false) as [r d3].
  rewrite !dedup_spec. cbn [fst snd]. rewrite (merge_gen _ _ (map fp_id (firsts [] s))) by (intros n; reflexivity). rewrite fold_partition. reflexivity.
Qed.
(* C17: the compiled files, in order: the listed sources, then the reference files not among them (first spelling of each), minus
   what cannot be read *)
Theorem resolve_files_spec fuel fs sources references :
  let src := firsts [] (fst (find_slice_files fuel fs sources true)) in
  let refs := firsts (map fp_id src) (firsts [] (fst (find_slice_files fuel fs references false))) in
  rs_files (resolve_files fuel fs sources references) = filter (fun x => readable fs (fp_path x)) (src ++ refs).
Proof. rewrite resolve_files_eq. reflexivity. Qed.
Theorem compiled_once fuel fs sources references : NoDup (map fp_id (rs_files (resolve_files fuel fs sources references))).
Proof.
  rewrite resolve_files_spec. apply NoDup_map_filter. rewrite map_app. apply NoDup_app_iff. split; [apply firsts_NoDup|split; [apply firsts_NoDup|]].
  intros n Hs Hr. apply in_map_iff in Hr as (y & <- & Hy). exact (proj1 (firsts_in _ _ _ Hy) Hs).
Qed.

Definition listed_defect (fs : fsys) (source : bool) (p : path) : option fdiag :=
  match kind_of fs p with
  | KNone => Some (DNotFound p)
  | KFile => if is_slice_file p then None else Some (DNotSlice p)
  | KDir => if source then Some (DDirAsSource p) else None
  end.
Definition contrib (fuel : nat) (fs : fsys) (source : bool) (p : path) : list path * list fdiag :=
  match kind_of fs p with
  | KNone => ([], [DNotFound p])
  | KFile => if is_slice_file p then ([p], []) else ([], [DNotSlice p])
  | KDir => if source then ([], [DDirAsSource p]) else walk fuel [] fs p
  end.
Definition canonize (fs : fsys) (source : bool) (p : path) : list fpath * list fdiag :=
  match canon_of fs p with Some id => ([{| fp_path := p; fp_id := id; fp_source := source |}], []) | None => ([], [DCanon p]) end.
Theorem find_slice_files_flat fuel fs paths source :
  find_slice_files fuel fs paths source =
  (flat_map (fun p => fst (canonize fs source p)) (flat_map (fun p => fst (contrib fuel fs source p)) paths),
   flat_map (fun p => snd (contrib fuel fs source p)) paths ++ flat_map (fun p => snd (canonize fs source p)) (flat_map (fun p => fst (contrib fuel fs source p)) paths)).
Proof.
  unfold find_slice_files. rewrite (fold_pair_flat _ (contrib fuel fs source)).
  - cbn [fst snd app]. apply (fold_pair_flat _ (canonize fs source)).
    intros acc p. unfold canonize. destruct (canon_of fs p); cbn [fst snd]; rewrite app_nil_r; reflexivity.
  - intros acc p. unfold contrib. destruct (kind_of fs p); [|destruct (is_slice_file p)|destruct source]; cbn [fst snd]; rewrite ?app_nil_r; reflexivity.
Qed.
Lemma listed_contrib fuel fs source p d : listed_defect fs source p = Some d -> In d (snd (contrib fuel fs source p)) /\ is_error_fdiag d = true.
Proof.
  unfold listed_defect, contrib. destruct (kind_of fs p); [|destruct (is_slice_file p)|destruct source]; intros E; inversion E; split; (reflexivity || left; reflexivity).
Qed.
(* a listed path that does not exist, is a file without the .slice extension, or (among the sources) is a directory is
   reported as an error, and then (errors_stop_parsing) nothing is parsed *)
Theorem listed_defects_reported fuel fs paths source p d : In p paths -> listed_defect fs source p = Some d ->
  In d (snd (find_slice_files fuel fs paths source)) /\ is_error_fdiag d = true.
Proof.
  intros Hp Hd. destruct (listed_contrib fuel fs source p d Hd) as [Hin He]. split; [|exact He].
  rewrite find_slice_files_flat. apply in_or_app. left. apply in_flat_map. exists p. split; assumption.
Qed.
Theorem errors_stop_parsing fuel fs sources references d :
  In d (snd (find_slice_files fuel fs sources true)) \/ In d (snd (find_slice_files fuel fs references false)) -> is_error_fdiag d = true ->
  parses (resolve_files fuel fs sources references) = false.
Proof.
  intros Hin He. unfold parses. apply negb_false_iff. apply existsb_exists. exists d. split; [|exact He].
  rewrite resolve_files_eq. cbn [rs_diags].
  destruct Hin as [H|H]; [|do 2 (apply in_or_app; right)]; apply in_or_app; left; exact H.
Qed.
Lemma found_canon fuel fs paths source x : In x (fst (find_slice_files fuel fs paths source)) -> canon_of fs (fp_path x) = Some (fp_id x) /\ fp_source x = source.
Proof.
  rewrite find_slice_files_flat. cbn [fst]. intros H. apply in_flat_map in H as (p & _ & Hx). unfold canonize in Hx.
  destruct (canon_of fs p) as [id|] eqn:E; [|contradiction]. destruct Hx as [<-|[]]. cbn. split; [exact E|reflexivity].
Qed.
(* what was found through the source list is a source, what was found through the reference list is a reference *)
Theorem roles fuel fs paths source : Forall (fun x => fp_source x = source) (fst (find_slice_files fuel fs paths source)).
Proof. apply Forall_forall. intros x H. exact (proj2 (found_canon _ _ _ _ _ H)). Qed.
(* what `firsts seen` keeps has no identity in `seen`. With the identities of the sources for `seen` and the reference files for `l`
   (resolve_files_spec): of a file listed as a source and also reachable as a reference, only the source entry is compiled *)
Theorem source_wins seen l x : In x (firsts seen l) -> ~ In (fp_id x) seen.
Proof. intros H. exact (proj1 (firsts_in l seen x H)). Qed.
(* repeats within one list: one DuplicateFile warning per repeated spelling, the first spelling is the one compiled *)
Theorem duplicates_reported l : length (repeats [] l) = length l - length (firsts [] l) /\
  Forall (fun d => exists x, In x l /\ d = DDuplicate (fp_path x)) (repeats [] l).
Proof.
  split; [pose proof (repeats_count l []); lia|].
  generalize (@nil nat). induction l as [|x l IH]; intros seen; cbn [repeats]; [constructor|].
  destruct (existsb _ seen).
  - constructor; [exists x; split; [left; reflexivity|reflexivity]|]. eapply Forall_impl; [|apply IH]. intros d (y & Hy & ->). exists y. split; [right; exact Hy|reflexivity].
  - eapply Forall_impl; [|apply IH]. intros d (y & Hy & ->). exists y. split; [right; exact Hy|reflexivity].
Qed.

(* every identity the file system knows; a directory being searched has one of them *)
Definition known_ids (fs : fsys) : list nat := nodup Nat.eq_dec (map snd (fs_canon fs)).
Lemma assoc_in {A} (l : list (path * A)) p v : assoc l p = Some v -> In v (map snd l).
Proof. induction l as [|[k x] r IH]; cbn [assoc]; [discriminate|]. destruct (cstr_eqb k p); [intros E; inversion E; left; reflexivity|intros H; right; exact (IH H)]. Qed.
(* whatever the links: with more fuel than there are identities not yet on the path, the result does not depend on the fuel *)
Theorem walk_fuel_independent fs : forall f1 f2 anc p, NoDup anc -> incl anc (known_ids fs) ->
  length (known_ids fs) - length anc < f1 -> length (known_ids fs) - length anc < f2 -> walk f1 anc fs p = walk f2 anc fs p.
Proof.
  induction f1 as [|f1 IH]; intros f2 anc p Hn Hi H1 H2; [inversion H1|]. destruct f2 as [|f2]; [inversion H2|]. cbn [walk].
  destruct (kind_of fs p); try reflexivity. destruct (canon_of fs p) as [id|] eqn:C; [|reflexivity].
  destruct (existsb (Nat.eqb id) anc) eqn:E; [reflexivity|]. destruct (children_of fs p) as [cs|]; [|reflexivity].
  assert (Nin : ~ In id anc) by (rewrite <- existsb_eqb_in, E; discriminate).
  assert (Kid : In id (known_ids fs)) by (apply nodup_In, (assoc_in _ _ _ C)).
  (* one more identity on the path, and still no more of them than there are *)
  pose proof (NoDup_incl_length (NoDup_cons id Nin Hn) (incl_cons Kid Hi)) as L. cbn [length] in L.
  apply fold_left_ext. intros acc c. rewrite (IH f2 (id :: anc) c); [reflexivity|constructor; assumption|apply incl_cons; assumption|cbn [length]; lia..].
Qed.
Corollary walk_terminates fs k p : walk (S (length (known_ids fs)) + k) [] fs p = walk (S (length (known_ids fs))) [] fs p.
Proof. apply walk_fuel_independent; [constructor|intros x []|cbn; lia|cbn; lia]. Qed.
(* a directory reached again from within itself contributes nothing: no file is found twice through a loop *)
Lemma walk_skips_ancestor fs fuel anc p id : kind_of fs p = KDir -> canon_of fs p = Some id -> In id anc -> walk (S fuel) anc fs p = ([], []).
Proof.
  intros K C H. cbn [walk]. rewrite K, C, (proj2 (existsb_eqb_in id anc) H). reflexivity.
Qed.
