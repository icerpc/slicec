From Coq Require Import List Bool Arith NArith Lia.
From SliceV Require Import Sema.Lints Driver.Emit.
Import ListNotations.

(* C14: every diagnostic that is not suppressed is written exactly once, in the order it was recorded *)
Theorem emit_json_once_in_order ds : emit_json ds = map json_line (filter shown ds).
Proof. induction ds as [|d r IH]; [reflexivity|]. cbn [emit_json filter]. unfold shown at 1. destruct (e_level d); cbn [map]; congruence. Qed.
Theorem emit_human_once_in_order files ds : emit_human files ds = map (human_diag files) (filter shown ds).
Proof. induction ds as [|d r IH]; [reflexivity|]. cbn [emit_human filter]. unfold shown at 1. destruct (e_level d); cbn [map]; congruence. Qed.
Lemma filter_shown (p : ediag -> bool) ds : (forall d, e_level d = LAllowed -> p d = false) -> filter p (filter shown ds) = filter p ds.
Proof.
  intros H. induction ds as [|d r IH]; [reflexivity|]. cbn [filter]. unfold shown at 1.
  destruct (e_level d) eqn:E; cbn [filter]; rewrite IH; [reflexivity..|]. rewrite (H d E). reflexivity.
Qed.
Lemma shown_allowed d : e_level d = LAllowed -> shown d = false.
Proof. intros E. unfold shown. rewrite E. reflexivity. Qed.
Theorem allowed_leave_no_trace files ds : emit_json (filter shown ds) = emit_json ds /\ emit_human files (filter shown ds) = emit_human files ds.
Proof. rewrite !emit_json_once_in_order, !emit_human_once_in_order, (filter_shown shown ds shown_allowed). auto. Qed.
(* at a constant level, `count_level`'s test on two levels is the test on the diagnostic's level alone *)
Lemma totals_counts ds :
  get_totals ds = (length (filter (fun d => match e_level d with LWarning => true | _ => false end) ds),
                   length (filter (fun d => match e_level d with LError => true | _ => false end) ds)).
Proof. reflexivity. Qed.
Theorem totals_match ds :
  fst (get_totals ds) + snd (get_totals ds) = length (emit_json ds) /\
  snd (get_totals ds) = length (filter (fun d => match e_level d with LError => true | _ => false end) (filter shown ds)) /\
  fst (get_totals ds) = length (filter (fun d => match e_level d with LWarning => true | _ => false end) (filter shown ds)).
Proof.
  rewrite totals_counts. cbn [fst snd]. split; [|split].
  - rewrite emit_json_once_in_order, map_length. unfold shown.
    induction ds as [|d r IH]; [reflexivity|]. cbn [filter].
    destruct (e_level d); cbn [length Nat.add]; rewrite <- ?plus_n_Sm, ?IH; reflexivity.
  - rewrite filter_shown; [reflexivity|]. intros d E. rewrite E. reflexivity.
  - rewrite filter_shown; [reflexivity|]. intros d E. rewrite E. reflexivity.
Qed.

Lemma unhex_hex n : (n < 16)%N -> unhex (hex_digit n) = Some n.
Proof.
  intros H. unfold hex_digit, unhex. destruct (N.ltb_spec n 10).
  - rewrite (proj2 (N.leb_le 48 _)), (proj2 (N.leb_le _ 57)) by lia. cbn [andb]. f_equal. lia.
  - rewrite (proj2 (N.leb_gt _ 57)), andb_false_r, (proj2 (N.leb_le 97 _)), (proj2 (N.leb_le _ 102)) by lia. cbn [andb]. f_equal. lia.
Qed.
Lemma unescape_step c r f : unescape (S f) (escape_char c ++ r) = option_map (cons c) (unescape f r).
Proof.
  unfold escape_char.
  case (N.eqb_spec c 34); [intros ->; reflexivity|intros H34].
  case (N.eqb_spec c 92); [intros ->; reflexivity|intros H92].
  case (N.eqb_spec c 8); [intros ->; reflexivity|intros _].
  case (N.eqb_spec c 9); [intros ->; reflexivity|intros _].
  case (N.eqb_spec c 10); [intros ->; reflexivity|intros _].
  case (N.eqb_spec c 12); [intros ->; reflexivity|intros _].
  case (N.eqb_spec c 13); [intros ->; reflexivity|intros _].
  destruct (c <? 32)%N eqn:Hlt; cbn [app unescape].
  - cbn [N.eqb Pos.eqb]. apply N.ltb_lt in Hlt.
    assert (H1 : (c / 16 < 16)%N) by (apply N.div_lt_upper_bound; [discriminate|exact (N.lt_trans c 32 (16 * 16) Hlt eq_refl)]).
    assert (H2 : (c mod 16 < 16)%N) by (apply N.mod_lt; discriminate).
    rewrite (unhex_hex _ H1), (unhex_hex _ H2). cbn [andb N.eqb Pos.eqb]. rewrite (N.mul_comm (c / 16)), <- N.div_mod'. reflexivity.
  - rewrite (proj2 (N.eqb_neq c 92) H92), (proj2 (N.eqb_neq c 34) H34), Hlt. reflexivity.
Qed.
(* what serde_json's escaping writes reads back as the same text *)
Theorem escape_roundtrip t : forall fuel, length t < fuel -> unescape fuel (flat_map escape_char t) = Some t.
Proof.
  induction t as [|c t IH]; intros fuel Hf; (destruct fuel as [|f]; [cbn in Hf; lia|]); [reflexivity|].
  cbn [flat_map]. rewrite unescape_step, IH by (cbn in Hf; lia). reflexivity.
Qed.

Definition avoids (c : N) (l : str) : Prop := Forall (fun x => x <> c) l.
Lemma lines_aux_all (P : N -> Prop) t : Forall P t -> forall cur, Forall P cur -> Forall (Forall P) (lines_aux t cur).
Proof.
  induction 1 as [|x r Hx Hr IH]; intros cur Hc; cbn [lines_aux].
  - destruct cur; constructor; [apply Forall_rev; assumption|constructor].
  - destruct (x =? 10)%N; [|apply IH; constructor; assumption].
    constructor; [apply Forall_rev|apply IH; constructor].
    destruct Hc as [|y cur' Hy Hc']; [constructor|]. destruct (y =? 13)%N; [assumption|constructor; assumption].
Qed.

Section Avoids.
  Variable c : N.
  Lemma avoids_app a b : avoids c a -> avoids c b -> avoids c (a ++ b).
  Proof. intros Ha Hb. apply Forall_app. split; assumption. Qed.
  Lemma avoids_if (b : bool) x y : avoids c x -> avoids c y -> avoids c (if b then x else y).
  Proof. intros Hx Hy. destruct b; assumption. Qed.
  Lemma avoids_flat_map {A} (g : A -> str) l : (forall x, In x l -> avoids c (g x)) -> avoids c (flat_map g l).
  Proof. intros H. apply Forall_flat_map, Forall_forall, H. Qed.

  (* c is a control character; what the emitters write of their own is printable, but for the line feed *)
  Hypothesis control : (c < 32)%N.
  Lemma printable x : (32 <= x)%N -> x <> c.
  Proof. intros H ->. exact (N.lt_irrefl _ (N.lt_le_trans _ _ _ control H)). Qed.
  Lemma avoids_text l : forallb (N.leb 32) l = true -> avoids c l.
  Proof. intros H. apply Forall_forall. intros x Hx. apply printable, N.leb_le. exact (proj1 (forallb_forall _ l) H x Hx). Qed.
  Lemma avoids_repeat x n : (32 <=? x)%N = true -> avoids c (repeat x n).
  Proof. intros H. apply Forall_forall. intros y Hy. rewrite (repeat_spec _ _ _ Hy). apply printable, N.leb_le, H. Qed.
  Lemma avoids_dec_digits : forall fuel n acc, avoids c acc -> avoids c (dec_digits fuel n acc).
  Proof.
    induction fuel as [|f IH]; intros n acc Ha; cbn [dec_digits]; [exact Ha|].
    assert (D : avoids c ((48 + N.of_nat (n mod 10))%N :: acc)).
    { constructor; [|exact Ha]. apply printable, (N.le_trans _ 48); [discriminate|apply N.le_add_r]. }
    destruct (Nat.ltb n 10); [exact D|apply IH, D].
  Qed.
  Lemma avoids_dec n : avoids c (dec n).
  Proof. apply avoids_dec_digits. constructor. Qed.
  #[local] Hint Resolve avoids_dec : avoid.
  #[local] Hint Extern 1 (avoids _ _) => apply avoids_text; reflexivity : avoid.

  Lemma hex_digit_printable n : (32 <= hex_digit n)%N.
  Proof. unfold hex_digit. destruct (n <? 10)%N; (eapply N.le_trans; [|apply N.le_add_r]); discriminate. Qed.
  Lemma avoids_escape_char x : avoids c (escape_char x).
  Proof.
    unfold escape_char. do 7 (apply avoids_if; [apply avoids_text; reflexivity|]). destruct (N.ltb_spec x 32) as [_|H].
    - apply (avoids_app [bsl; 117; 48; 48]%N); [apply avoids_text; reflexivity|].
      constructor; [|constructor; [|constructor]]; apply printable, hex_digit_printable.
    - constructor; [exact (printable x H)|constructor].
  Qed.
  Lemma avoids_json_string t : avoids c (json_string t).
  Proof.
    apply (avoids_app [q]); [apply avoids_text; reflexivity|].
    apply avoids_app; [|apply avoids_text; reflexivity]. apply avoids_flat_map. intros x _. apply avoids_escape_char.
  Qed.
  Lemma avoids_key k : avoids c (key k).
  Proof. apply avoids_app; [apply avoids_json_string|apply avoids_text; reflexivity]. Qed.
  #[local] Hint Resolve avoids_json_string avoids_key : avoid.
  Lemma avoids_json_loc r k : avoids c (json_loc r k).
  Proof. unfold json_loc. repeat apply avoids_app; auto with avoid. Qed.
  Lemma avoids_json_span sp : avoids c (json_span sp).
  Proof. destruct sp as [x|]; unfold json_span; repeat apply avoids_app; auto using avoids_json_loc with avoid. Qed.
  Lemma avoids_join l : Forall (avoids c) l -> avoids c (join [comma_c] l).
  Proof.
    induction 1 as [|x l Hx Hl IH]; [constructor|]. cbn [join]. destruct l; [exact Hx|].
    apply avoids_app; [exact Hx|]. apply avoids_app; [apply avoids_text; reflexivity|exact IH].
  Qed.
  Lemma avoids_json_note n : avoids c (json_note n).
  Proof. unfold json_note. repeat apply avoids_app; auto using avoids_json_span with avoid. Qed.
  Lemma body_app a r : avoids c a -> (exists b, r = b ++ [10%N] /\ avoids c b) -> exists b, a ++ r = b ++ [10%N] /\ avoids c b.
  Proof. intros Ha (b & -> & Hb). exists (a ++ b). split; [apply app_assoc|apply avoids_app; assumption]. Qed.
  (* a JSON line holds no control character before the line feed that ends it *)
  Theorem json_line_body d : exists body, json_line d = body ++ [10%N] /\ avoids c body.
  Proof.
    unfold json_line. repeat (apply body_app; [auto using avoids_json_span with avoid|]).
    - apply avoids_join, Forall_map, Forall_forall. intros n _. apply avoids_json_note.
    - exists []. split; [reflexivity|constructor].
  Qed.

  (* the human format: the line feed is the only control character it adds to those of the texts it is given *)
  Hypothesis not_lf : c <> 10%N.
  Lemma avoids_lf : avoids c [10%N].
  Proof. constructor; [exact (not_eq_sym not_lf)|constructor]. Qed.
  Lemma avoids_spaces n : avoids c (spaces n).
  Proof. apply avoids_repeat. reflexivity. Qed.
  Lemma avoids_expand_tabs l : avoids c l -> avoids c (expand_tabs l).
  Proof.
    intros H. apply avoids_flat_map. intros x Hx. apply avoids_if; [apply avoids_text; reflexivity|].
    constructor; [exact (proj1 (Forall_forall _ l) H x Hx)|constructor].
  Qed.
  Lemma avoids_highlight line hs he : avoids c (highlight line hs he).
  Proof. unfold highlight. apply avoids_if; (apply avoids_app; [apply avoids_spaces|]); [apply avoids_text|apply avoids_repeat]; reflexivity. Qed.
  #[local] Hint Resolve avoids_lf avoids_spaces avoids_expand_tabs avoids_highlight : avoid.
  Lemma avoids_snippet text x : avoids c text -> avoids c (snippet text x).
  Proof.
    intros Ht. unfold snippet. repeat apply avoids_app; auto with avoid.
    apply avoids_flat_map. intros i _. destruct (nth_error (text_lines text) i) as [line|] eqn:E; [|constructor].
    assert (Hl : avoids c line).
    { apply nth_error_In in E. revert line E. apply Forall_forall, lines_aux_all; [exact Ht|constructor]. }
    unfold pad_right. repeat apply avoids_app; auto with avoid.
  Qed.
  Definition files_avoid (files : list (str * str)) : Prop := forall f, In f files -> avoids c (snd f).
  Lemma avoids_emit_snippet files x : files_avoid files -> avoids c (sp_file x) -> avoids c (emit_snippet files x).
  Proof.
    intros Hf Hx. unfold emit_snippet. repeat apply avoids_app; auto with avoid.
    destruct (find (fun f => str_eqb (fst f) (sp_file x)) files) as [f|] eqn:E; [|constructor]. apply find_some in E as [Hin _].
    apply avoids_app; [apply avoids_snippet, Hf, Hin|apply avoids_lf].
  Qed.
  Definition span_avoids (o : option span) : Prop := match o with Some x => avoids c (sp_file x) | None => True end.
  Definition ediag_avoids (d : ediag) : Prop :=
    avoids c (e_code d) /\ avoids c (e_msg d) /\ span_avoids (e_span d) /\ forall n, In n (e_notes d) -> avoids c (n_msg n) /\ span_avoids (n_span n).
  Lemma avoids_opt_snippet files o : files_avoid files -> span_avoids o -> avoids c (match o with Some x => emit_snippet files x | None => [] end).
  Proof. intros Hf Ho. destruct o as [x|]; [apply avoids_emit_snippet; assumption|constructor]. Qed.
  Theorem human_adds_no_control files d : files_avoid files -> ediag_avoids d -> avoids c (human_diag files d).
  Proof.
    intros Hf (Hc & Hm & Hs & Hn). unfold human_diag. repeat apply avoids_app; auto using avoids_opt_snippet with avoid.
    - destruct (e_level d); apply avoids_text; reflexivity.
    - apply avoids_flat_map. intros n Hin. destruct (Hn n Hin) as [H1 H2]. repeat apply avoids_app; auto using avoids_opt_snippet with avoid.
  Qed.
End Avoids.

Lemma avoids_not_in c l : avoids c l -> ~ In c l.
Proof. intros H Hin. exact (proj1 (Forall_forall _ l) H c Hin eq_refl). Qed.
(* a JSON line contains exactly one newline: its last character *)
Theorem json_line_single_line d : exists body, json_line d = body ++ [10%N] /\ ~ In 10%N body.
Proof. destruct (json_line_body 10 eq_refl d) as (body & E & H). exists body. split; [exact E|exact (avoids_not_in 10 body H)]. Qed.

(* colours disabled: ESC (27) occurs in what is written only where the diagnostics and the sources themselves contain it *)
Definition noesc (l : str) : Prop := Forall (fun c => c <> 27%N) l.
Lemma noesc_lit (l : str) : forallb (fun c => negb (c =? 27)%N) l = true -> noesc l.
Proof.
  intros H. apply Forall_forall. intros c Hc E. rewrite forallb_forall in H. specialize (H c Hc). subst c. discriminate.
Qed.
Definition files_noesc (files : list (str * str)) : Prop := forall f, In f files -> noesc (snd f).
Definition span_noesc (o : option span) : Prop := match o with Some x => noesc (sp_file x) | None => True end.
Definition ediag_noesc (d : ediag) : Prop :=
  noesc (e_code d) /\ noesc (e_msg d) /\ span_noesc (e_span d) /\ forall n, In n (e_notes d) -> noesc (n_msg n) /\ span_noesc (n_span n).
Theorem human_adds_no_escape files d : files_noesc files -> ediag_noesc d -> noesc (human_diag files d).
Proof.
  (* `noesc` and what is built on it for files, spans and diagnostics are `avoids 27` and what is built on it, written out *)
  change (files_avoid 27 files -> ediag_avoids 27 d -> avoids 27 (human_diag files d)).
  apply human_adds_no_control; [reflexivity|discriminate].
Qed.
Corollary emit_human_no_escape files ds : files_noesc files -> Forall ediag_noesc ds -> Forall noesc (emit_human files ds).
Proof.
  intros Hf Hd. rewrite emit_human_once_in_order. apply Forall_map, Forall_forall. intros d Hin.
  apply filter_In in Hin as [Hin _]. apply human_adds_no_escape; [exact Hf|exact (proj1 (Forall_forall _ ds) Hd d Hin)].
Qed.

Lemma display_width_acc l : forall n, fold_left (fun n c => if (c =? tab)%N then n + 4 else n + 1) l n = n + length (expand_tabs l).
Proof.
  unfold expand_tabs. induction l as [|c r IH]; intros n; cbn [fold_left flat_map]; [apply plus_n_O|].
  rewrite IH, app_length. destruct (c =? tab)%N; symmetry; apply Nat.add_assoc.
Qed.
Lemma display_width_expand l : display_width l = length (expand_tabs l).
Proof. apply (display_width_acc l 0). Qed.
Lemma skipn_add {A} (a : nat) : forall b (l : list A), skipn a (skipn b l) = skipn (b + a) l.
Proof. induction b as [|b IH]; intros l; [reflexivity|]. destruct l as [|x l]; cbn [skipn plus]; [destruct a; reflexivity|apply IH]. Qed.
(* the dashes begin in the printed column of the span's first character and are as many as the span's characters occupy when
   printed (tabs as four columns): underline and underlined text line up *)
Theorem underline_matches_span line hs he : hs < he -> he <= length line ->
  highlight line hs he = spaces (1 + length (expand_tabs (firstn hs line))) ++ repeat 45%N (length (expand_tabs (firstn (he - hs) (skipn hs line)))) /\
  expand_tabs line = expand_tabs (firstn hs line) ++ expand_tabs (firstn (he - hs) (skipn hs line)) ++ expand_tabs (skipn he line).
Proof.
  intros H1 H2. split.
  - unfold highlight. destruct (Nat.eqb_spec hs he) as [E|_]; [lia|]. rewrite !display_width_expand. reflexivity.
  - unfold expand_tabs. rewrite <- !flat_map_app. f_equal.
    assert (E : skipn he line = skipn (he - hs) (skipn hs line)) by (rewrite skipn_add; replace (hs + (he - hs)) with he by lia; reflexivity).
    rewrite E, firstn_skipn, firstn_skipn. reflexivity.
Qed.
