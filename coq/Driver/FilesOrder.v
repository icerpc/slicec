(* The compiled file set does not depend on the order in which paths are listed (C15, C17): permuting the source paths and the
   reference paths changes neither which files (by identity) are compiled nor which of them are sources, nor which defects
   of the listed paths are reported; only the order of files and of reports changes. *)
From Coq Require Import List Arith Permutation.
From SliceV Require Import Driver.Files Driver.FilesProofs.
Import ListNotations.
Local Open Scope nat_scope.

Lemma found_perm fuel fs source paths paths' : Permutation paths paths' ->
  Permutation (fst (find_slice_files fuel fs paths source)) (fst (find_slice_files fuel fs paths' source)) /\
  Permutation (snd (find_slice_files fuel fs paths source)) (snd (find_slice_files fuel fs paths' source)).
Proof.
  intros H. rewrite !find_slice_files_flat. cbn [fst snd]. split.
  - apply Permutation_flat_map, Permutation_flat_map, H.
  - apply Permutation_app; [apply Permutation_flat_map, H|apply Permutation_flat_map, Permutation_flat_map, H].
Qed.
Lemma kept_cases S R x : In x (kept S R) -> In x S \/ (In x R /\ ~ In (fp_id x) (map fp_id S)).
Proof.
  intros H. apply in_app_iff in H as [H|H]; [left; exact (proj2 (firsts_in _ _ _ H))|right].
  destruct (firsts_in _ _ _ H) as [Hn H']. split; [exact (proj2 (firsts_in _ _ _ H'))|].
  intros X. apply Hn, firsts_complete; [exact X|intros []].
Qed.
Lemma kept_ids S R id : In id (map fp_id S) \/ In id (map fp_id R) -> In id (map fp_id (kept S R)).
Proof.
  intros H. unfold kept. rewrite map_app, in_app_iff. destruct (in_dec Nat.eq_dec id (map fp_id (firsts [] S))) as [Y|N]; [left; exact Y|right].
  destruct H as [H|H]; [exfalso; apply N, firsts_complete; [exact H|intros []]|].
  apply firsts_complete; [|exact N]. apply firsts_complete; [exact H|intros []].
Qed.

Section Order.
  Variables (fuel : nat) (fs : fsys).
  (* whether a file can be read does not depend on which of its spellings is used *)
  Hypothesis readable_by_identity : forall p q id, canon_of fs p = Some id -> canon_of fs q = Some id -> readable fs p = readable fs q.

  Definition compiled_ids (r : resolved) : list nat := map fp_id (rs_files r).
  Definition is_source_in (r : resolved) (id : nat) : Prop := exists x, In x (rs_files r) /\ fp_id x = id /\ fp_source x = true.

  Lemma compiled_iff sources references id :
    In id (compiled_ids (resolve_files fuel fs sources references)) <->
    exists x, (In x (fst (find_slice_files fuel fs sources true)) \/ In x (fst (find_slice_files fuel fs references false))) /\ fp_id x = id /\ readable fs (fp_path x) = true.
  Proof.
    unfold compiled_ids. rewrite resolve_files_spec. cbv zeta.
    set (S := fst (find_slice_files fuel fs sources true)). set (R := fst (find_slice_files fuel fs references false)).
    assert (C : forall x, In x S \/ In x R -> canon_of fs (fp_path x) = Some (fp_id x)) by (intros x [H|H]; exact (proj1 (found_canon _ _ _ _ _ H))).
    split.
    - intros H. apply in_map_iff in H as (x & <- & Hx). apply filter_In in Hx as [Hx Hr]. exists x. split; [|split; [reflexivity|exact Hr]].
      destruct (kept_cases S R x Hx) as [H|[H _]]; [left|right]; exact H.
    - intros (x & Hx & <- & Hr).
      (* some spelling y of the same file is kept; it is readable because x is *)
      assert (Hid : In (fp_id x) (map fp_id (kept S R))) by (apply kept_ids; destruct Hx; [left|right]; apply in_map; assumption).
      apply in_map_iff in Hid as (y & Ey & Hy). apply in_map_iff. exists y. split; [exact Ey|]. apply filter_In. split; [exact Hy|].
      rewrite (readable_by_identity (fp_path y) (fp_path x) (fp_id x)); [exact Hr|rewrite <- Ey; apply C|exact (C x Hx)].
      destruct (kept_cases S R y Hy) as [H|[H _]]; [left|right]; exact H.
  Qed.
  Lemma source_iff sources references id :
    is_source_in (resolve_files fuel fs sources references) id <->
    In id (compiled_ids (resolve_files fuel fs sources references)) /\ In id (map fp_id (fst (find_slice_files fuel fs sources true))).
  Proof.
    unfold is_source_in, compiled_ids. rewrite resolve_files_spec. cbv zeta.
    set (S := fst (find_slice_files fuel fs sources true)). set (R := fst (find_slice_files fuel fs references false)).
    split.
    - intros (x & Hx & <- & Hs). split; [apply in_map; exact Hx|]. apply filter_In in Hx as [Hx _].
      destruct (kept_cases S R x Hx) as [H|[H _]]; [apply in_map; exact H|]. rewrite (proj2 (found_canon _ _ _ _ _ H)) in Hs. discriminate.
    - intros [Hc Hs]. apply in_map_iff in Hc as (x & <- & Hx). exists x. split; [exact Hx|split; [reflexivity|]].
      apply filter_In in Hx as [Hx _]. destruct (kept_cases S R x Hx) as [H|[_ H]]; [exact (proj2 (found_canon _ _ _ _ _ H))|contradiction].
  Qed.

  Lemma compiled_perm s s' r r' id : Permutation s s' -> Permutation r r' ->
    In id (compiled_ids (resolve_files fuel fs s r)) -> In id (compiled_ids (resolve_files fuel fs s' r')).
  Proof.
    intros Ps Pr H. apply compiled_iff in H as (x & Hx & E & Hr). apply compiled_iff. exists x. split; [|split; assumption].
    destruct Hx as [Hx|Hx]; [left|right]; (eapply Permutation_in; [|exact Hx]); apply found_perm; assumption.
  Qed.
  Theorem file_set_order_independent sources sources' references references' : Permutation sources sources' -> Permutation references references' ->
    (forall id, In id (compiled_ids (resolve_files fuel fs sources references)) <-> In id (compiled_ids (resolve_files fuel fs sources' references'))) /\
    (forall id, is_source_in (resolve_files fuel fs sources references) id <-> is_source_in (resolve_files fuel fs sources' references') id) /\
    length (compiled_ids (resolve_files fuel fs sources references)) = length (compiled_ids (resolve_files fuel fs sources' references')).
  Proof.
    intros Ps Pr.
    assert (A : forall id, In id (compiled_ids (resolve_files fuel fs sources references)) <-> In id (compiled_ids (resolve_files fuel fs sources' references')))
      by (intros id; split; apply compiled_perm; auto using Permutation_sym).
    split; [exact A|split].
    - intros id. rewrite !source_iff, (A id).
      rewrite (Permutation_map fp_id (proj1 (found_perm fuel fs true _ _ Ps))). reflexivity.
    - apply Permutation_length. apply NoDup_Permutation; [apply compiled_once|apply compiled_once|exact A].
  Qed.
  (* the two searches report the same defects, in another order *)
  Theorem parses_order_independent sources sources' references references' : Permutation sources sources' -> Permutation references references' ->
    (forall d, is_error_fdiag d = true ->
       (In d (snd (find_slice_files fuel fs sources true)) \/ In d (snd (find_slice_files fuel fs references false))) <->
       (In d (snd (find_slice_files fuel fs sources' true)) \/ In d (snd (find_slice_files fuel fs references' false)))).
  Proof.
    intros Ps Pr d _. rewrite (proj2 (found_perm fuel fs true _ _ Ps)), (proj2 (found_perm fuel fs false _ _ Pr)). reflexivity.
  Qed.
End Order.
