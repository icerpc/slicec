From Coq Require Import List Bool NArith Arith Lia.
From SliceV Require Import Cli.PluginSpec Sema.Lookup Doc.Comment.
Import ListNotations.
Local Open Scope nat_scope.

Lemma span_while_app p a b : forallb p a = true -> (match b with c :: _ => p c = false | [] => True end) -> span_while p (a ++ b) = (a, b).
Proof.
  induction a as [|x a IH]; cbn [app forallb span_while]; intros Ha Hb.
  - destruct b as [|c b]; [reflexivity|]. cbn [span_while]. rewrite Hb. reflexivity.
  - apply andb_true_iff in Ha as [Hx Ha]. rewrite Hx, IH by assumption. reflexivity.
Qed.
Lemma span_while_split p s : s = fst (span_while p s) ++ snd (span_while p s) /\ forallb p (fst (span_while p s)) = true.
Proof.
  induction s as [|c s [IH1 IH2]]; cbn [span_while]; [split; reflexivity|].
  destruct (p c) eqn:E; [|split; reflexivity]. destruct (span_while p s) as [a b]. cbn [fst snd] in *. split; [cbn [app]; f_equal; exact IH1|].
  cbn [forallb]. rewrite E. exact IH2.
Qed.

Lemma leading_ws_cons c t : leading_ws (c :: t) = if is_ws c then S (leading_ws t) else 0.
Proof. unfold leading_ws. cbn [span_while]. destruct (is_ws c); [destruct (span_while is_ws t)|]; reflexivity. Qed.
Lemma trim_start_skipn t : trim_start t = skipn (leading_ws t) t.
Proof. induction t as [|c t IH]; [reflexivity|]. rewrite leading_ws_cons. cbn [trim_start]. destruct (is_ws c); [exact IH|reflexivity]. Qed.
Lemma leading_ws_trim t : leading_ws (trim_start t) = 0.
Proof.
  induction t as [|c t IH]; [reflexivity|]. cbn [trim_start]. destruct (is_ws c) eqn:E; [exact IH|]. rewrite leading_ws_cons, E. reflexivity.
Qed.
Lemma ws_prefix t : forall n, n <= leading_ws t -> exists w, t = w ++ skipn n t /\ forallb is_ws w = true /\ length w = n.
Proof.
  induction t as [|c t IH]; intros [|n] H; try (exists []; repeat split; reflexivity); [inversion H|].
  rewrite leading_ws_cons in H. destruct (is_ws c) eqn:E; [|inversion H].
  destruct (IH n (le_S_n _ _ H)) as (w & T & F & L). exists (c :: w). cbn [skipn app forallb length]. rewrite E, F, L, <- T. auto.
Qed.
Lemma strip_skipn k t : strip k t = skipn (match k with Some n => Nat.min n (leading_ws t) | None => leading_ws t end) t.
Proof. destruct k; [reflexivity|apply trim_start_skipn]. Qed.

(* what is removed from a line is white space only, and never more than the line's own indentation *)
Theorem strip_removes_white_space k t : exists w, t = w ++ strip k t /\ forallb is_ws w = true /\
  match k with Some n => length w = Nat.min n (leading_ws t) | None => length w = leading_ws t end.
Proof. rewrite strip_skipn. destruct k; apply ws_prefix; [apply Nat.le_min_r|apply le_n]. Qed.
Lemma common_indent_le ls l n : In l ls -> line_indent l = Some n -> exists k, common_indent ls = Some k /\ k <= n.
Proof.
  induction ls as [|x ls IH]; [intros []|]. intros [<-|Hin] Hn; cbn [common_indent fold_right]; fold (common_indent ls).
  - rewrite Hn. destruct (common_indent ls); eexists; (split; [reflexivity|]); [apply Nat.le_min_l|apply le_n].
  - destruct (IH Hin Hn) as (k & -> & Hk). destruct (line_indent x); eexists; (split; [reflexivity|]); [|exact Hk].
    etransitivity; [apply Nat.le_min_r|exact Hk].
Qed.
Lemma omin_cases a b : omin a b = a \/ omin a b = b.
Proof. destruct a as [x|], b as [y|]; cbn [omin]; auto. destruct (Nat.min_dec x y) as [->| ->]; auto. Qed.
Lemma common_indent_attained ls k : common_indent ls = Some k -> exists l, In l ls /\ line_indent l = Some k.
Proof.
  induction ls as [|x ls IH]; [discriminate|]. cbn [common_indent fold_right]. fold (common_indent ls).
  destruct (omin_cases (line_indent x) (common_indent ls)) as [-> | ->]; intros H.
  - exists x. split; [left; reflexivity|exact H].
  - destruct (IH H) as (l & Hin & Hl). exists l. split; [right; exact Hin|exact Hl].
Qed.
Lemma line_indent_text t rest n : line_indent (Some (CText t :: rest)) = Some n -> n = leading_ws t.
Proof. cbn [line_indent]. destruct rest; [destruct (all_ws t); [discriminate|]|]; intros H; injection H as <-; reflexivity. Qed.
(* a counted line whose first component is text loses exactly the common indentation: relative indentation is preserved *)
Theorem counted_line_loses_exactly_common ls k t rest : common_indent ls = Some k -> In (Some (CText t :: rest)) ls ->
  line_indent (Some (CText t :: rest)) <> None ->
  exists w, t = w ++ strip (Some k) t /\ forallb is_ws w = true /\ length w = k /\
            strip_line (Some k) (Some (CText t :: rest)) = CText (strip (Some k) t) :: rest ++ [nlc].
Proof.
  intros Hc Hin Hcount. destruct (line_indent (Some (CText t :: rest))) as [n|] eqn:El; [|congruence].
  destruct (common_indent_le ls _ n Hin El) as (k' & Hc' & Hle). rewrite Hc in Hc'. injection Hc' as <-.
  apply line_indent_text in El as ->.
  destruct (strip_removes_white_space (Some k) t) as (w & H1 & H2 & H3). rewrite (Nat.min_l _ _ Hle) in H3.
  exists w. auto.
Qed.
(* some counted line ends up with no indentation at all: nothing more could have been removed from every line *)
Theorem some_line_starts_at_margin ls k : common_indent ls = Some k ->
  exists l, In l ls /\ line_indent l = Some k /\
    match l with Some (CText t :: _) => leading_ws (strip (Some k) t) = 0 \/ all_ws t = true | _ => k = 0 end.
Proof.
  intros Hc. destruct (common_indent_attained ls k Hc) as (l & Hin & Hl).
  exists l. split; [exact Hin|]. split; [exact Hl|].
  destruct l as [[|[t|g ids] rest]|]; try discriminate; [|injection Hl as <-; reflexivity].
  apply line_indent_text in Hl as ->. left. rewrite strip_skipn, Nat.min_id, <- trim_start_skipn. apply leading_ws_trim.
Qed.
(* line breaks are preserved: every written line gives its components followed by exactly one newline component, in order *)
Theorem sanitize_line_structure ls : sanitize ls = flat_map (strip_line (common_indent ls)) ls /\
  forall k l, exists body, strip_line k l = body ++ [nlc] /\
    match l with
    | None => body = []
    | Some (CText t :: rest) => body = CText (strip k t) :: rest
    | Some m => body = m
    end.
Proof.
  split; [reflexivity|]. intros k [[|[t|g ids] rest]|]; eexists; (split; [|reflexivity]); reflexivity.
Qed.

(* a link or see target is bound by the scope search used for types (Sema.Lookup.find), started at the documented element's own scoped identifier *)
Theorem resolve_link_spec t self global id :
  resolve_link t self global id =
    match find_spec _ t self global id with
    | Some (k, e) => if linkable k then LinkTo e else LinkNotLinkable k
    | None => LinkMissing
    end.
Proof. unfold resolve_link. rewrite find_eq_spec. reflexivity. Qed.

(* what can be written: message components, and the four kinds of line *)
Inductive wline := WMsg (cs : message) | WParam (i : cstr) (inline : option message) | WReturns (i : option cstr) (inline : option message) | WSee (g : bool) (ids : list cstr).
Definition wf_comp (c : comp) : Prop := match c with CLink _ ids => ids <> [] | CText _ => True end.
Fixpoint scoped_rest_toks (ids : list cstr) : list item :=
  match ids with [] => [] | i :: r => IT DKDColon :: IT (DKIdent i) :: scoped_rest_toks r end.
Definition scoped_toks (g : bool) (ids : list cstr) : list item :=
  match ids with [] => [] | i :: r => (if g then [IT DKDColon] else []) ++ IT (DKIdent i) :: scoped_rest_toks r end.
Definition comp_toks (c : comp) : list item :=
  match c with CText s => [IT (DKText s)] | CLink g ids => IT DKLBrace :: IT DKLink :: scoped_toks g ids ++ [IT DKRBrace] end.
Definition msg_toks (m : message) : list item := flat_map comp_toks m.
Definition inline_toks (il : option message) : list item := match il with Some m => IT DKColon :: msg_toks m | None => [] end.
Definition line_toks (w : wline) : list item :=
  match w with
  | WMsg cs => msg_toks cs ++ [IT DKNewline]
  | WParam i il => IT DKParam :: IT (DKIdent i) :: inline_toks il ++ [IT DKNewline]
  | WReturns (Some i) il => IT DKReturns :: IT (DKIdent i) :: inline_toks il ++ [IT DKNewline]
  | WReturns None il => IT DKReturns :: inline_toks il ++ [IT DKNewline]
  | WSee g ids => IT DKSee :: scoped_toks g ids ++ [IT DKNewline]
  end.
Definition flat_inline (il : option message) : option message := match il with Some m => opt_msg m | None => None end.
Definition pline_of (w : wline) : pline :=
  match w with
  | WMsg cs => PMsg (opt_msg cs)
  | WParam i il => PTag TParam (Some i) (flat_inline il)
  | WReturns i il => PTag TReturns i (flat_inline il)
  | WSee g ids => PSee g ids
  end.
Definition wf_line (w : wline) : Prop :=
  match w with
  | WMsg cs => Forall wf_comp cs
  | WParam _ (Some m) | WReturns _ (Some m) => Forall wf_comp m
  | WSee _ ids => ids <> []
  | _ => True
  end.
Definition no_comp_start (ts : list item) : Prop := match ts with IT (DKText _) :: _ | IT DKLBrace :: _ => False | _ => True end.
Definition no_dcolon (ts : list item) : Prop := match ts with IT DKDColon :: _ => False | _ => True end.

Lemma scoped_rest_stop ts : no_dcolon ts -> scoped_rest ts = Ok ([], ts).
Proof. destruct ts as [|[[]|] r]; try reflexivity. intros []. Qed.
Lemma comps_stop f ts : no_comp_start ts -> comps (S f) ts = Ok ([], ts).
Proof. destruct ts as [|[[]|] r]; try reflexivity; intros []. Qed.
Lemma scoped_rest_written ids rest : no_dcolon rest -> scoped_rest (scoped_rest_toks ids ++ rest) = Ok (ids, rest).
Proof.
  intros Hr. induction ids as [|i ids IH]; cbn [scoped_rest_toks app scoped_rest]; [apply scoped_rest_stop, Hr|].
  rewrite IH. reflexivity.
Qed.
Lemma scoped_written g ids rest : ids <> [] -> no_dcolon rest -> scoped_id (scoped_toks g ids ++ rest) = Ok (g, ids, rest).
Proof.
  intros Hne Hr. destruct ids as [|i ids]; [congruence|]. unfold scoped_toks. destruct g; cbn [app scoped_id]; rewrite scoped_rest_written by exact Hr; reflexivity.
Qed.
Lemma comps_written cs : Forall wf_comp cs -> forall fuel rest, length cs < fuel -> no_comp_start rest ->
  comps fuel (msg_toks cs ++ rest) = Ok (cs, rest).
Proof.
  induction 1 as [|c cs Hc _ IH]; intros fuel rest Hf Hr; (destruct fuel as [|f]; [inversion Hf|]); [apply comps_stop, Hr|].
  apply Nat.succ_lt_mono in Hf. cbn [msg_toks flat_map]. fold (msg_toks cs). destruct c as [s|g ids]; cbn [comp_toks app comps].
  - rewrite IH by assumption. reflexivity.
  - rewrite <- !app_assoc. cbn [app]. rewrite scoped_written by (auto; exact I). cbn [rbind snd fst].
    rewrite IH by assumption. reflexivity.
Qed.
Lemma msg_toks_length m : length m <= length (msg_toks m).
Proof.
  induction m as [|c m IH]; [apply le_n|]. cbn [msg_toks flat_map length]. rewrite app_length. fold (msg_toks m).
  destruct c; cbn [comp_toks length]; lia.
Qed.
Lemma comps_line m : Forall wf_comp m -> let ts := msg_toks m ++ [IT DKNewline] in comps (S (length ts)) ts = Ok (m, [IT DKNewline]).
Proof.
  intros Hw ts. apply comps_written; [exact Hw| |exact I].
  subst ts. rewrite app_length. pose proof (msg_toks_length m). cbn [length]. lia.
Qed.
Lemma section_rest_written k id il : match il with Some m => Forall wf_comp m | None => True end ->
  section_rest k id (inline_toks il ++ [IT DKNewline]) = Ok (PTag k id (flat_inline il)).
Proof.
  intros Hw. destruct il as [m|]; [|reflexivity]. cbn [inline_toks app section_rest flat_inline].
  rewrite (comps_line m Hw). reflexivity.
Qed.
Lemma starts_message_written w : starts_message (line_toks w) = match w with WMsg _ => true | _ => false end.
Proof. destruct w as [[|[s|g ids] cs]|i il|[i|] il|g ids]; reflexivity. Qed.
Lemma parse_line_message ts : starts_message ts = true ->
  parse_line ts = rbind (comps (S (length ts)) ts) (fun p => expect_newline (snd p) (PMsg (opt_msg (fst p)))).
Proof. destruct ts as [|[[]|] r]; try discriminate; reflexivity. Qed.
(* every written line is read back as the line it is *)
Theorem parse_line_written w : wf_line w -> parse_line (line_toks w) = Ok (pline_of w).
Proof.
  intros Hw. destruct w as [cs|i il|[i|] il|g ids]; cbn [line_toks pline_of].
  - rewrite parse_line_message by exact (starts_message_written (WMsg cs)). rewrite (comps_line cs Hw). reflexivity.
  - exact (section_rest_written TParam (Some i) il Hw).
  - exact (section_rest_written TReturns (Some i) il Hw).
  - destruct il as [m|]; [exact (section_rest_written TReturns None (Some m) Hw)|reflexivity].
  - cbn [parse_line]. rewrite scoped_written; [reflexivity|exact Hw|exact I].
Qed.
(* the grouping that parse_lines does, over lines already parsed *)
Fixpoint group (ls : list pline) (c : dctx) (d : doc) : res doc :=
  match ls with
  | [] => Ok (dflush c d)
  | PMsg m :: rest => match c with
                      | COverview l => group rest (COverview (l ++ [m])) d
                      | CTag k id il l => group rest (CTag k id il (l ++ [m])) d
                      | CAfterSee => Err PSyntax
                      end
  | PTag k id il :: rest => group rest (CTag k id il []) (dflush c d)
  | PSee g ids :: rest => group rest CAfterSee (add_see (dflush c d) g ids)
  end.
Lemma parse_lines_written ws : Forall wf_line ws -> forall c d, parse_lines (map line_toks ws) c d = group (map pline_of ws) c d.
Proof.
  induction 1 as [|w ws Hw _ IH]; intros c d; [reflexivity|]. cbn [map parse_lines group].
  rewrite starts_message_written, parse_line_written by exact Hw. cbn [rbind].
  destruct w as [cs|i il|i il|g ids]; cbn [pline_of]; destruct c; try reflexivity; apply IH.
Qed.

(* a comment as it is written: overview lines, then blocks; a param/returns block owns the message lines after it *)
Inductive wblock := BParam (i : cstr) (il : option message) (conts : list (option message))
                  | BReturns (i : option cstr) (il : option message) (conts : list (option message))
                  | BSee (g : bool) (ids : list cstr).
Definition block_plines (b : wblock) : list pline :=
  match b with
  | BParam i il conts => PTag TParam (Some i) il :: map PMsg conts
  | BReturns i il conts => PTag TReturns i il :: map PMsg conts
  | BSee g ids => [PSee g ids]
  end.
Definition apply_block (d : doc) (b : wblock) : doc :=
  match b with
  | BParam i il conts => dflush (CTag TParam (Some i) il conts) d
  | BReturns i il conts => dflush (CTag TReturns i il conts) d
  | BSee g ids => add_see d g ids
  end.
Lemma group_msgs ms : forall rest c d, c <> CAfterSee ->
  group (map PMsg ms ++ rest) c d =
  group rest (match c with COverview l => COverview (l ++ ms) | CTag k id il l => CTag k id il (l ++ ms) | CAfterSee => c end) d.
Proof.
  induction ms as [|m ms IH]; intros rest c d Hc; cbn [map app].
  - destruct c; rewrite ?app_nil_r; reflexivity.
  - destruct c; [| |congruence]; cbn [group]; rewrite IH by discriminate; rewrite <- app_assoc; reflexivity.
Qed.
Lemma group_blocks bs : forall c d, group (flat_map block_plines bs) c d = Ok (fold_left apply_block bs (dflush c d)).
Proof.
  induction bs as [|b bs IH]; intros c d; [reflexivity|]. cbn [flat_map fold_left].
  destruct b as [i il conts|i il conts|g ids]; cbn [block_plines app group]; rewrite ?group_msgs by discriminate; apply IH.
Qed.
(* the overview is the leading message lines; then every tag in the order written, with its inline part and the lines that follow it *)
Theorem comment_structure ov bs :
  group (map PMsg ov ++ flat_map block_plines bs) (COverview []) doc0 = Ok (fold_left apply_block bs (dflush (COverview ov) doc0)).
Proof. rewrite group_msgs by discriminate. apply group_blocks. Qed.
Definition block_params (b : wblock) : list (cstr * message) := match b with BParam i il conts => [(i, section_message il conts)] | _ => [] end.
Definition block_returns (b : wblock) : list (option cstr * message) := match b with BReturns i il conts => [(i, section_message il conts)] | _ => [] end.
Definition block_sees (b : wblock) : list (bool * list cstr) := match b with BSee g ids => [(g, ids)] | _ => [] end.
Theorem tags_in_order bs : forall d,
  let r := fold_left apply_block bs d in
  d_overview r = d_overview d /\ d_params r = d_params d ++ flat_map block_params bs /\ d_returns r = d_returns d ++ flat_map block_returns bs /\ d_see r = d_see d ++ flat_map block_sees bs.
Proof.
  induction bs as [|b bs IH]; intros d; cbn [fold_left flat_map]; [rewrite !app_nil_r; auto|].
  destruct (IH (apply_block d b)) as (H1 & H2 & H3 & H4). cbn zeta. rewrite H1, H2, H3, H4.
  destruct b as [i il conts|i il conts|g ids]; cbn [apply_block dflush add_see d_overview d_params d_returns d_see block_params block_returns block_sees app];
    rewrite <- ?app_assoc, ?app_nil_r; auto.
Qed.

Local Open Scope N_scope.
Definition ident_ok (i : cstr) : Prop := match i with c :: r => is_letter c = true /\ forallb is_alnum_ r = true | [] => False end.
Fixpoint render_rest (ids : list cstr) : cstr := match ids with [] => [] | i :: r => [58; 58] ++ i ++ render_rest r end.
Definition render_scoped (g : bool) (ids : list cstr) : cstr :=
  match ids with [] => [] | i :: r => (if g then [58; 58] else []) ++ i ++ render_rest r end.
(* a link is written {@link target} ; text is written as it is *)
Definition render_comp (c : comp) : cstr :=
  match c with CText s => s | CLink g ids => [123; 64; 108; 105; 110; 107; 32] ++ render_scoped g ids ++ [125] end.
Definition render_msg (m : message) : cstr := flat_map render_comp m.
Fixpoint wfl_msg (m : message) : Prop :=
  match m with
  | [] => True
  | CText s :: r => s <> [] /\ forallb not_lb s = true /\ match r with CText _ :: _ => False | _ => True end /\ wfl_msg r
  | CLink g ids :: r => ids <> [] /\ Forall ident_ok ids /\ wfl_msg r
  end.

Lemma letter_range c : is_letter c = true -> 65 <= c <= 122.
Proof. intros H. apply orb_prop in H as [H|H]; apply andb_prop in H as [L U]; apply N.leb_le in L, U; lia. Qed.
Lemma ws_range c : is_ws c = true -> c <= 32 \/ 133 <= c.
Proof.
  intros H. unfold is_ws in H.
  repeat (apply orb_prop in H as [H|H]); try (apply N.eqb_eq in H); try (apply andb_prop in H as [L U]; apply N.leb_le in L, U); lia.
Qed.
Lemma letter_facts c : is_letter c = true -> is_ws c = false /\ (c =? 64) = false /\ (c =? 58) = false /\ (c =? 125) = false /\ is_alnum_ c = true.
Proof.
  intros H. pose proof (letter_range c H) as B. unfold is_alnum_. rewrite H. repeat split; try (apply N.eqb_neq; lia).
  destruct (is_ws c) eqn:W; [apply ws_range in W; lia|reflexivity].
Qed.
Lemma lex_text f c t rest : not_lb c = true -> forallb not_lb t = true -> (match rest with [] => True | d :: _ => d = 123 end) ->
  lex (S f) LMessage ((c :: t) ++ rest) = IT (DKText (c :: t)) :: lex f LMessage rest.
Proof.
  intros Hc Ht Hr. cbn [app lex]. unfold not_lb in Hc. apply negb_true_iff in Hc. rewrite Hc. cbn [andb].
  rewrite span_while_app; [reflexivity|exact Ht|]. destruct rest as [|d r]; [exact I|]. subst d. reflexivity.
Qed.
Lemma lex_open f X : lex (S (S f)) LMessage (123 :: 64 :: 108 :: 105 :: 110 :: 107 :: 32 :: X) = IT DKLBrace :: IT DKLink :: lex f LInline (32 :: X).
Proof. reflexivity. Qed.
Lemma lex_space f X : lex f LInline (32 :: X) = lex f LInline X.
Proof. destruct f; reflexivity. Qed.
Lemma lex_dcolon f X : lex (S f) LInline (58 :: 58 :: X) = IT DKDColon :: lex f LInline X.
Proof. reflexivity. Qed.
Lemma lex_rbrace f X : lex (S f) LInline (125 :: X) = IT DKRBrace :: lex f LMessage X.
Proof. reflexivity. Qed.
Lemma lex_ident f i rest : ident_ok i -> (match rest with d :: _ => is_alnum_ d = false | [] => True end) ->
  lex (S f) LInline (i ++ rest) = IT (DKIdent i) :: lex f LInline rest.
Proof.
  intros Hi Hr. destruct i as [|c r]; [contradiction|]. destruct Hi as [Hc Ht].
  destruct (letter_facts c Hc) as (W & A & B & C & D).
  cbn [app lex trim_start is_inline]. rewrite W. unfold c_at, c_colon, c_rb. rewrite A, B, C, Hc.
  change (c :: r ++ rest) with ((c :: r) ++ rest). rewrite span_while_app; [reflexivity| |exact Hr].
  cbn [forallb]. rewrite D, Ht. reflexivity.
Qed.
(* the lexer spends one unit of fuel per token: the fuel is written as the number of tokens to come plus what is left *)
Lemma lex_scoped_rest ids : Forall ident_ok ids -> forall f X,
  lex (length (scoped_rest_toks ids) + S f)%nat LInline (render_rest ids ++ 125 :: X) = scoped_rest_toks ids ++ IT DKRBrace :: lex f LMessage X.
Proof.
  induction 1 as [|i ids Hi _ IH]; intros f X; cbn [render_rest scoped_rest_toks length Nat.add app]; [apply lex_rbrace|].
  rewrite <- app_assoc, lex_dcolon, lex_ident, IH; [reflexivity|exact Hi|destruct ids; reflexivity].
Qed.
Lemma lex_scoped g ids : Forall ident_ok ids -> forall f X,
  lex (length (scoped_toks g ids) + S f)%nat LInline (render_scoped g ids ++ 125 :: X) = scoped_toks g ids ++ IT DKRBrace :: lex f LMessage X.
Proof.
  intros Hok f X. destruct ids as [|i ids]; [apply lex_rbrace|]. destruct g; [exact (lex_scoped_rest (i :: ids) Hok f X)|].
  inversion Hok as [|? ? Hi Hids]; subst. cbn [scoped_toks render_scoped app length Nat.add].
  rewrite <- app_assoc, lex_ident, lex_scoped_rest; [reflexivity|exact Hids|exact Hi|destruct ids; reflexivity].
Qed.
Lemma lex_link g ids : Forall ident_ok ids -> forall f X,
  lex (length (comp_toks (CLink g ids)) + f)%nat LMessage (render_comp (CLink g ids) ++ X) = comp_toks (CLink g ids) ++ lex f LMessage X.
Proof.
  intros Hok f X. cbn [comp_toks render_comp length app Nat.add]. rewrite app_length, <- !app_assoc, <- Nat.add_assoc.
  cbn [length Nat.add app]. rewrite lex_open, lex_space, lex_scoped by assumption. reflexivity.
Qed.
Lemma render_starts_brace m : wfl_msg m -> match m with CLink _ _ :: _ => exists r, render_msg m = 123 :: r | _ => True end.
Proof. destruct m as [|[s|g ids] m]; intros _; try exact I. eexists. reflexivity. Qed.
Lemma lex_message m : wfl_msg m -> forall f, lex (length (msg_toks m) + S f)%nat LMessage (render_msg m) = msg_toks m ++ [IT DKNewline].
Proof.
  induction m as [|c m IH]; intros Hw f; [reflexivity|].
  cbn [render_msg msg_toks flat_map]. fold (render_msg m) (msg_toks m). rewrite app_length, <- Nat.add_assoc.
  destruct c as [s|g ids]; cbn [wfl_msg] in Hw.
  - destruct Hw as (Hne & Hs & Hadj & Hw). destruct s as [|c t]; [congruence|]. cbn [forallb] in Hs. apply andb_true_iff in Hs as [Hc Ht].
    cbn [comp_toks length Nat.add render_comp]. rewrite lex_text; [|exact Hc|exact Ht|].
    + rewrite IH by exact Hw. reflexivity.
    + destruct m as [|[s'|g' ids'] m']; [exact I|contradiction|reflexivity].
  - destruct Hw as (_ & Hok & Hw). rewrite lex_link by exact Hok. rewrite IH by exact Hw. rewrite <- app_assoc. reflexivity.
Qed.
Lemma scoped_rest_toks_le ids : (length (scoped_rest_toks ids) <= length (render_rest ids))%nat.
Proof. induction ids as [|i ids IH]; [apply le_n|]. cbn [scoped_rest_toks render_rest length app]. rewrite app_length. lia. Qed.
Lemma toks_le_chars m : wfl_msg m -> (length (msg_toks m) <= length (render_msg m))%nat.
Proof.
  induction m as [|c m IH]; intros Hw; [apply le_n|]. cbn [msg_toks render_msg flat_map]. fold (msg_toks m) (render_msg m). rewrite !app_length.
  destruct c as [s|g ids]; cbn [wfl_msg] in Hw.
  - destruct Hw as (Hne & _ & _ & Hw). specialize (IH Hw). destruct s; [congruence|]. cbn [comp_toks render_comp length]. lia.
  - destruct Hw as (_ & _ & Hw). specialize (IH Hw). cbn [comp_toks render_comp length]. rewrite !app_length. cbn [length].
    assert (length (scoped_toks g ids) <= 4 + length (render_scoped g ids))%nat; [|lia].
    destruct ids as [|i ids]; [cbn; lia|]. cbn [scoped_toks render_scoped]. rewrite !app_length. cbn [length].
    pose proof (scoped_rest_toks_le ids). destruct g; cbn [length]; lia.
Qed.
(* a written message line (text pieces and {@link ...} tags) is read back as exactly those components *)
Theorem lex_line_written m : wfl_msg m -> line_mode (render_msg m) = LMessage -> lex_line (render_msg m) = line_toks (WMsg m).
Proof.
  intros Hw Hm. unfold lex_line. rewrite Hm. pose proof (toks_le_chars m Hw) as Hle.
  replace (S (S (length (render_msg m)))) with (length (msg_toks m) + S (S (length (render_msg m)) - length (msg_toks m)))%nat by lia.
  apply lex_message. exact Hw.
Qed.
Lemma lex_plain_text s : s <> [] -> forallb not_lb s = true -> line_mode s = LMessage -> lex_line s = [IT (DKText s); IT DKNewline].
Proof.
  intros Hne Hp Hm. pose proof (lex_line_written [CText s]) as H. cbn [render_msg flat_map render_comp] in H.
  rewrite app_nil_r in H. apply H; [|exact Hm]. cbn [wfl_msg]. auto.
Qed.
Lemma lex_empty_line : lex_line [] = [IT DKNewline].
Proof. reflexivity. Qed.
Lemma wfl_wf m : wfl_msg m -> Forall wf_comp m.
Proof. induction m as [|[s|g ids] m IH]; cbn [wfl_msg]; intros H; constructor; try exact I; try tauto; apply IH; tauto. Qed.

(* a comment consisting of message lines only: the overview is those lines, components kept, indentation removed as stated above *)
Theorem overview_of_written_lines ms : ms <> [] -> Forall (fun m => wfl_msg m /\ line_mode (render_msg m) = LMessage) ms ->
  parse_comment (map render_msg ms) =
    Ok {| d_overview := Some (sanitize (map opt_msg ms)); d_params := []; d_returns := []; d_see := [] |}.
Proof.
  intros Hne Hall. unfold parse_comment.
  assert (E : map lex_line (map render_msg ms) = map line_toks (map WMsg ms)).
  { rewrite !map_map. apply map_ext_Forall. eapply Forall_impl; [|exact Hall]. intros m [H1 H2]. apply lex_line_written; assumption. }
  rewrite E, parse_lines_written.
  - rewrite map_map. cbn [pline_of]. rewrite <- (map_map opt_msg PMsg), <- (app_nil_r (map PMsg _)), group_msgs by discriminate.
    destruct ms; [congruence|]. reflexivity.
  - apply Forall_map. eapply Forall_impl; [|exact Hall]. intros m [H _]. exact (wfl_wf m H).
Qed.

Local Open Scope nat_scope.
(* what comps_total needs of the parsers comps calls: at most n items are left, so the fuel still covers them, and no PFuel of their own *)
Definition fine {A} (n : nat) (r : res (A * list item)) : Prop :=
  match r with Ok p => length (snd p) <= n | Err e => e <> PFuel end.
Lemma fine_unexpected {A} n ts : @fine A n (unexpected ts).
Proof. destruct ts as [|[t|e] r]; discriminate. Qed.
Lemma fine_bind {A B} n m (r : res (A * list item)) (k : A * list item -> res (B * list item)) :
  fine n r -> (forall p, length (snd p) <= n -> fine m (k p)) -> fine m (rbind r k).
Proof. destruct r; cbn [rbind fine]; auto. Qed.
Lemma fine_rbind_total {A B} n (r : res (A * list item)) (k : A * list item -> res B) :
  fine n r -> (forall p, length (snd p) <= n -> k p <> Err PFuel) -> rbind r k <> Err PFuel.
Proof. destruct r; cbn [rbind fine]; [auto|congruence]. Qed.
Lemma rbind_total {A B} (r : res A) (k : A -> res B) : r <> Err PFuel -> (forall a, k a <> Err PFuel) -> rbind r k <> Err PFuel.
Proof. destruct r; cbn [rbind]; [auto|congruence]. Qed.

Lemma fine_total {A} n (r : res (A * list item)) : fine n r -> r <> Err PFuel.
Proof. destruct r as [p|e]; [discriminate|]. intros H E. apply H. injection E as ->. reflexivity. Qed.

(* scoped_rest calls itself two tokens further on: induction on a bound of the length *)
Lemma scoped_rest_fine_upto n : forall ts, length ts <= n -> fine (length ts) (scoped_rest ts).
Proof.
  induction n as [|n IH]; intros ts L; [destruct ts; [exact (le_n 0)|inversion L]|].
  destruct ts as [|[[]|] ts]; try exact (le_n _). destruct ts as [|[[]|] r]; try apply fine_unexpected. cbn [scoped_rest].
  eapply fine_bind; [apply IH; cbn [length] in L; lia|]. intros p Hp. exact (le_S _ _ (le_S _ _ Hp)).
Qed.
Lemma scoped_rest_fine ts : fine (length ts) (scoped_rest ts).
Proof. exact (scoped_rest_fine_upto (length ts) ts (le_n _)). Qed.
Lemma scoped_id_fine ts : fine (pred (length ts)) (scoped_id ts).
Proof.
  destruct ts as [|[[]|] ts]; try apply fine_unexpected; cbn [scoped_id].
  - eapply fine_bind; [apply scoped_rest_fine|]. intros p Hp. exact Hp.
  - destruct ts as [|[[]|] r]; try apply fine_unexpected.
    eapply fine_bind; [apply scoped_rest_fine|]. intros p Hp. exact (le_S _ _ Hp).
Qed.
Lemma unexpected_total {A} ts : @unexpected (A * list item) ts <> Err PFuel.
Proof. exact (fine_total 0 _ (fine_unexpected 0 ts)). Qed.
Lemma comps_total : forall fuel ts, length ts < fuel -> comps fuel ts <> Err PFuel.
Proof.
  induction fuel as [|f IH]; intros ts Hf; [inversion Hf|].
  destruct ts as [|[[]|] ts]; try discriminate; cbn [length] in Hf; apply Nat.succ_lt_mono in Hf; cbn [comps].
  - apply rbind_total; [apply IH, Hf|discriminate].
  - destruct ts as [|[[]|] r1]; try apply unexpected_total.
    eapply fine_rbind_total; [apply scoped_id_fine|]. intros [q r2] Hq.
    destruct r2 as [|[[]|] r3]; try apply unexpected_total. apply rbind_total; [|discriminate].
    apply IH. cbn [snd length pred] in *. lia.
Qed.
Lemma expect_newline_total {A} r (a : A) : expect_newline r a <> Err PFuel.
Proof. destruct r as [|[[]|] r']; discriminate. Qed.
Lemma comps_bind_total {B} ts (a : message * list item -> B) :
  rbind (comps (S (length ts)) ts) (fun p => expect_newline (snd p) (a p)) <> Err PFuel.
Proof. apply rbind_total; [apply comps_total, le_n|]. intros p. apply expect_newline_total. Qed.
Lemma section_rest_total k id r : section_rest k id r <> Err PFuel.
Proof. unfold section_rest. destruct r as [|[[]|] r']; try apply expect_newline_total. apply comps_bind_total. Qed.
Lemma parse_line_total ts : parse_line ts <> Err PFuel.
Proof.
  destruct ts as [|[[]|] r]; try discriminate; try apply comps_bind_total; cbn [parse_line].
  - destruct r as [|[[]|] r']; try discriminate. apply section_rest_total.
  - destruct r as [|[[]|] r']; apply section_rest_total.
  - eapply fine_rbind_total; [apply scoped_id_fine|]. intros q _. apply expect_newline_total.
Qed.
Lemma parse_lines_total ls : forall c d, parse_lines ls c d <> Err PFuel.
Proof.
  induction ls as [|ts rest IH]; intros c d; cbn [parse_lines]; [discriminate|].
  destruct c; [| |destruct (starts_message ts); [discriminate|]]; (apply rbind_total; [apply parse_line_total|]);
    intros [m|k' id' il'|g ids]; try apply IH; discriminate.
Qed.
(* the comment parser always returns a comment or a syntax/lexical error: it never runs out of steps *)
Theorem parse_comment_total lines : parse_comment lines <> Err PFuel.
Proof. apply parse_lines_total. Qed.
