(* Token-level read-back, third part (C02, C09): custom types, type aliases, enumerations (underlying type, enumerators with
   fields and explicit or implicit values) and interfaces (bases, operations with parameters and return types) as whole
   definitions, and files made of any of the five kinds of definition -- for arbitrary token locations, with every recorded
   location equal to the extent of its own tokens. *)
From Coq Require Import List Bool NArith ZArith Arith Lia.
From SliceV Require Import Cli.PluginSpec Doc.Comment Syntax.Tokens Syntax.Lexer Syntax.Parser Syntax.ParserProofs Syntax.ParserProofs2.
Import ListNotations.
Local Open Scope nat_scope.

Definition parse_defn (fuel : nat) (s : pstate) : pres defn := plet pre, s1 <- p_prelude fuel s ;; p_definition_after_prelude fuel pre s1.

Inductive written_custom : defn -> list ptok -> Prop :=
| wcustom doc attrs ppts lc ec name ln en :
    written_prelude (doc, attrs) ppts ->
    written_custom (DCustom doc attrs (mksident name (mksspan ln en)) (mksspan lc en)) (ppts ++ [(lc, TkKw KwCustom, ec); (ln, TkIdent name, en)]).
Lemma custom_written d pts : written_custom d pts -> forall fuel rest, length pts < fuel -> reads (parse_defn fuel) d pts rest.
Proof.
  destruct 1 as [doc attrs ppts lc ec name ln en Hpre]. intros fuel rest Hf le last dg. len Hf. flat. unfold parse_defn.
  part (prelude_written _ _ Hpre). cbn [pbind]. unfold p_definition_after_prelude. step. extents.
Qed.

Inductive written_alias : defn -> list ptok -> Prop :=
| walias doc attrs ppts la ea name ln en lq eq t ypts :
    written_prelude (doc, attrs) ppts -> writtenA t ypts ->
    written_alias (DAlias doc attrs (mksident name (mksspan ln en)) t (mksspan la en))
      (ppts ++ (la, TkKw KwTypeAlias, ea) :: (ln, TkIdent name, en) :: (lq, TkEq, eq) :: ypts).
Lemma alias_written d pts : written_alias d pts -> forall fuel rest, length pts < fuel -> safe_follow rest -> reads (parse_defn fuel) d pts rest.
Proof.
  destruct 1 as [doc attrs ppts la ea name ln en lq eq t ypts Hpre Hty]. intros fuel rest Hf [Hq Hc] le last dg. len Hf. flat. unfold parse_defn.
  part (prelude_written _ _ Hpre). cbn [pbind]. unfold p_definition_after_prelude. step. part (typerefA_written _ _ Hty). extents.
Qed.

(* "= integer" or "= - integer" *)
Inductive written_value : option (Z * sspan) -> list ptok -> Prop :=
| wv_none : written_value None []
| wv_pos s z b lq eq l e : parse_int s = (IntOk z, b) -> written_value (Some (z, mksspan l e)) [(lq, TkEq, eq); (l, TkInt s, e)]
| wv_neg s z b lq eq lm em l e : parse_int s = (IntOk z, b) ->
    written_value (Some ((- z)%Z, mksspan lm e)) [(lq, TkEq, eq); (lm, TkMinus, em); (l, TkInt s, e)].
Lemma value_written value pts : written_value value pts -> forall rest, ~ next_is TkEq rest ->
  reads (fun s => if is_tok s TkEq then plet i, a <- p_signed_integer (advance s) ;; POk_ (Some i) a else POk_ None s) value pts rest.
Proof.
  destruct 1 as [|s z b lq eq l e Hs|s z b lq eq lm em l e Hs]; intros rest He le last dg; cbn [app];
    [rewrite (not_next_is _ _ He)|step; unfold p_signed_integer, p_integer; step; rewrite Hs..]; reflexivity.
Qed.
(* "( fields )" *)
Inductive written_efields : option (list smember) -> list ptok -> Prop :=
| wef_none : written_efields None []
| wef_some fs mpts lp ep lr er : written_members false fs mpts -> written_efields (Some fs) ((lp, TkLParen, ep) :: mpts ++ [(lr, TkRParen, er)]).
Lemma efields_written fields pts : written_efields fields pts -> forall fuel rest, length pts < fuel -> ~ next_is TkLParen rest ->
  reads (fun s => if is_tok s TkLParen then plet fs, a <- p_members false fuel (advance s) ;; plet _, b <- expect TkRParen a ;; POk_ (Some fs) b
                  else POk_ None s) fields pts rest.
Proof.
  destruct 1 as [|fs mpts lp ep lr er Hm]; intros fuel rest Hf Hp le last dg; [cbn [app]; rewrite (not_next_is _ _ Hp); reflexivity|].
  len Hf. flat. step. part (members_written _ _ _ Hm). step. extents.
Qed.
Inductive written_enumerator (prev : option Z) : enumerator -> list ptok -> Prop :=
| wen doc attrs ppts name ln en fields fpts value vpts :
    written_prelude (doc, attrs) ppts -> written_efields fields fpts -> written_value value vpts ->
    written_enumerator prev
      (mkenumerator doc attrs (mksident name (mksspan ln en)) fields
         (match value with Some i => fst i | None => next_enumerator_value prev end) (option_map snd value) (mksspan ln (last_end (fpts ++ vpts) en)))
      (ppts ++ (ln, TkIdent name, en) :: fpts ++ vpts).
Definition enum_follow (ts : list ptok) : Prop := ~ next_is TkLParen ts /\ ~ next_is TkEq ts.
Lemma enumerator_written prev en pts : written_enumerator prev en pts -> forall fuel rest, length pts < fuel -> enum_follow rest ->
  reads (p_enumerator fuel prev) en pts rest.
Proof.
  destruct 1 as [doc attrs ppts name ln en fields fpts value vpts Hpre Hfs Hv]. intros fuel rest Hf [Hp He] le last dg. len Hf. flat. unfold p_enumerator.
  part (prelude_written _ _ Hpre). step.
  part (efields_written _ _ Hfs); [|destruct Hv; side]. cbn [pbind]. part (value_written _ _ Hv). extents.
Qed.

(* UndelimitedList<Enumerator>: after every enumerator a comma may or may not be written; an implicit value is the previous + 1 *)
Inductive written_enumerators : option Z -> list enumerator -> list ptok -> Prop :=
| wes_nil prev : written_enumerators prev [] []
| wes_cons prev e epts c es pts : written_enumerator prev e epts -> (c = [] \/ exists l e', c = [(l, TkComma, e')]) ->
    written_enumerators (Some (se_value e)) es pts -> written_enumerators prev (e :: es) (epts ++ c ++ pts).
Lemma written_enumerator_head prev e pts : written_enumerator prev e pts -> forall x,
  0 < length pts /\ decl_first (pts ++ x) /\ forall le last dg, starts_enumerator (mkps (pts ++ x) le last dg) = true.
Proof. destruct 1 as [doc attrs ppts name ln en fields fpts value vpts Hpre _ _]. intros x. destruct Hpre; (split; [cbn; lia|split; [exact I|reflexivity]]). Qed.
Lemma enumerators_written prev es pts : written_enumerators prev es pts -> forall fuel rest le last dg, S (length pts) < fuel ->
  starts_enumerator (mkps rest le last dg) = false -> enum_follow rest -> ~ next_is TkComma rest ->
  p_enumerators fuel prev (mkps (pts ++ rest) le last dg) = POk_ es (mkps rest le (last_end pts last) dg).
Proof.
  induction 1 as [prev|prev e epts c es pts He Hc Hes IH]; intros [|f] rest le last dg Hf Hs Hr Hcm; [lia| |lia|]; cbn [p_enumerators].
  - cbn [app]. rewrite Hs. reflexivity.
  - destruct (written_enumerator_head _ _ _ He (c ++ pts ++ rest)) as (Hm1 & _ & St). len Hf. rewrite <- !app_assoc, St.
    destruct Hc as [->|(l & e' & ->)]; cbn [app].
    + (* no comma: the next enumerator, or what follows the list *)
      assert (N : enum_follow (pts ++ rest) /\ ~ next_is TkComma (pts ++ rest)).
      { destruct Hes as [|prev' e2 epts2 c2 es2 pts2 He2 _ _]; [tauto|]. rewrite <- !app_assoc.
        destruct (written_enumerator_head _ _ _ He2 (c2 ++ pts2 ++ rest)) as (_ & D & _). repeat split; apply (decl_first_next _ _ D); discriminate. }
      part (enumerator_written _ _ _ He); [|apply N]. cbn [pbind]. rewrite (opt_tok_miss _ _ (proj2 N)). part IH. extents.
    + part (enumerator_written _ _ _ He). step. part IH. extents.
Qed.

(* compact? unchecked? *)
Inductive written_mods : bool -> bool -> list ptok -> Prop :=
| wmod_ff : written_mods false false []
| wmod_tf l e : written_mods true false [(l, TkKw KwCompact, e)]
| wmod_ft l e : written_mods false true [(l, TkKw KwUnchecked, e)]
| wmod_tt l e l2 e2 : written_mods true true [(l, TkKw KwCompact, e); (l2, TkKw KwUnchecked, e2)].
(* ": underlying type" *)
Inductive written_under : option stref -> list ptok -> Prop :=
| wu_none : written_under None []
| wu_some t ypts lc ec : writtenA t ypts -> written_under (Some t) ((lc, TkColon, ec) :: ypts).
Lemma under_written under pts : written_under under pts -> forall fuel lb eb rest, length pts < fuel ->
  reads (fun s => if is_tok s TkColon then plet t, a <- p_typeref fuel (advance s) ;; POk_ (Some t) a else POk_ None s) under pts ((lb, TkLBrace, eb) :: rest).
Proof.
  destruct 1 as [|t ypts lc ec Hty]; intros fuel lb eb rest Hf le last dg; [reflexivity|]. len Hf. flat. step.
  part (typerefA_written _ _ Hty). extents.
Qed.
Inductive written_enum : defn -> list ptok -> Prop :=
| wenum doc attrs ppts compact unchecked mpts lk ek name ln en under upts lb eb ens epts lr er :
    written_prelude (doc, attrs) ppts -> written_mods compact unchecked mpts -> written_under under upts -> written_enumerators None ens epts ->
    written_enum (DEnum doc attrs compact unchecked (mksident name (mksspan ln en)) under ens (mksspan (first_start (mpts ++ [(lk, TkKw KwEnum, ek)]) L0) en))
      (ppts ++ mpts ++ (lk, TkKw KwEnum, ek) :: (ln, TkIdent name, en) :: upts ++ (lb, TkLBrace, eb) :: epts ++ [(lr, TkRBrace, er)]).
(* compact? unchecked? enum, as a definition's head reads them *)
Lemma mods_written compact unchecked mpts : written_mods compact unchecked mpts -> forall lk ek rest le last dg, exists s1,
  opt_kw KwCompact (mkps (mpts ++ (lk, TkKw KwEnum, ek) :: rest) le last dg) = (compact, s1) /\ is_kw s1 KwStruct = false /\
  opt_kw KwUnchecked s1 = (unchecked, mkps ((lk, TkKw KwEnum, ek) :: rest) le (last_end mpts last) dg).
Proof. destruct 1; intros lk ek rest le last dg; eexists; repeat split. Qed.
Lemma enum_written d pts : written_enum d pts -> forall fuel rest, length pts < fuel -> reads (parse_defn fuel) d pts rest.
Proof.
  destruct 1 as [doc attrs ppts compact unchecked mpts lk ek name ln en under upts lb eb ens epts lr er Hpre Hmods Hu Hens]. intros fuel rest Hf le last dg.
  len Hf. flat. unfold parse_defn. part (prelude_written _ _ Hpre); [|destruct Hmods; not_next]. cbn [pbind]. unfold p_definition_after_prelude.
  edestruct (mods_written _ _ _ Hmods) as (s1 & E1 & E2 & E3).
  rewrite E1, (next_start_mid [] L0). step. rewrite E2, E3. step. part (under_written _ _ Hu). step.
  part (enumerators_written _ _ _ Hens). step. extents.
Qed.

(* NonEmptyCommaList<TypeRef> before "{": a trailing comma may be written *)
Inductive written_bases : list stref -> list ptok -> Prop :=
| wb_last t ypts : writtenA t ypts -> written_bases [t] ypts
| wb_last_comma t ypts l e : writtenA t ypts -> written_bases [t] (ypts ++ [(l, TkComma, e)])
| wb_cons t ypts l e r pts : writtenA t ypts -> written_bases r pts -> written_bases (t :: r) (ypts ++ (l, TkComma, e) :: pts).
Lemma written_bases_head bs pts : written_bases bs pts -> forall x le last dg, is_tok (mkps (pts ++ x) le last dg) TkLBrace = false.
Proof. destruct 1 as [t ypts Ht|t ypts l e Ht|t ypts l e r pts Ht _]; intros x le last dg; rewrite <- ?app_assoc; apply (writtenA_head _ _ Ht). Qed.
Lemma bases_written bs pts : written_bases bs pts -> forall fuel lb eb rest, S (length pts) < fuel ->
  reads (p_bases fuel) bs pts ((lb, TkLBrace, eb) :: rest).
Proof.
  induction 1 as [t ypts Ht|t ypts l e Ht|t ypts l e r pts Ht Hr IH]; intros [|f] lb eb rest Hf le last dg; try (exfalso; lia);
    len Hf; flat; cbn [p_bases]; part (typerefA_written _ _ Ht); step.
  - reflexivity.
  - extents.
  - rewrite (written_bases_head _ _ Hr). part IH. extents.
Qed.
(* ": bases" *)
Inductive written_inherits : list stref -> list ptok -> Prop :=
| wi_none : written_inherits [] []
| wi_some bs bpts lc ec : written_bases bs bpts -> written_inherits bs ((lc, TkColon, ec) :: bpts).
Lemma inherits_written bases pts : written_inherits bases pts -> forall fuel lb eb rest, S (length pts) < fuel ->
  reads (fun s => if is_tok s TkColon then p_bases fuel (advance s) else POk_ [] s) bases pts ((lb, TkLBrace, eb) :: rest).
Proof.
  destruct 1 as [|bs bpts lc ec Hbs]; intros fuel lb eb rest Hf le last dg; [reflexivity|]. len Hf. flat. step.
  part (bases_written _ _ Hbs). extents.
Qed.

(* "-> type", "-> tag(n) stream type", or "-> ( two or more parameters )" *)
Inductive written_stream : bool -> list ptok -> Prop :=
| wst_no : written_stream false []
| wst_yes l e : written_stream true [(l, TkKw KwStream, e)].
Inductive written_return : list smember -> list ptok -> Prop :=
| wr_none : written_return [] []
| wr_tuple ps mpts la ea lp ep lr er : written_members true ps mpts -> 2 <= length ps ->
    written_return ps ((la, TkArrow, ea) :: (lp, TkLParen, ep) :: mpts ++ [(lr, TkRParen, er)])
| wr_single tag tpts stream spts t ypts la ea : written_tag tag tpts -> written_stream stream spts -> writtenA t ypts ->
    written_return [mksmember [] [] tag (mksident returnValue (mksspan (first_start (tpts ++ spts ++ ypts) L0) (last_end ypts L0))) stream t
                      (mksspan (first_start (tpts ++ spts ++ ypts) L0) (last_end ypts L0))]
      ((la, TkArrow, ea) :: tpts ++ spts ++ ypts).
Lemma stream_then_type stream spts t ypts : written_stream stream spts -> writtenA t ypts -> forall rest le last dg,
  opt_kw KwStream (mkps (spts ++ ypts ++ rest) le last dg) = (stream, mkps (ypts ++ rest) le (last_end spts last) dg).
Proof. intros Hs. apply (member_stream true). destruct Hs as [|l e]; [left; split; reflexivity|right; repeat split; exists l, e; reflexivity]. Qed.
(* a single return type begins with "tag", "stream" or the type: not with "(" *)
Lemma single_return_head tag tpts stream spts t ypts : written_tag tag tpts -> written_stream stream spts -> writtenA t ypts -> forall x le last dg,
  is_tok (mkps (tpts ++ spts ++ ypts ++ x) le last dg) TkLParen = false /\
  next_start (mkps (tpts ++ spts ++ ypts ++ x) le last dg) = first_start (tpts ++ spts ++ ypts) L0.
Proof.
  intros Htag Hs Hty x le last dg. destruct (writtenA_head _ _ Hty) as [Hne Hy]. destruct Htag, Hs; try (split; reflexivity).
  split; [apply Hy|]. destruct ypts as [|[[? ?] ?] ?]; [case Hne|]; reflexivity.
Qed.
Lemma return_written rs pts : written_return rs pts -> forall fuel rest, length pts < fuel -> safe_follow rest -> ~ next_is TkArrow rest ->
  reads (fun s => if is_tok s TkArrow then p_return_type fuel s else POk_ [] s) rs pts rest.
Proof.
  destruct 1 as [|ps mpts la ea lp ep lr er Hm H2|tag tpts stream spts t ypts la ea Htag Hs Hty]; intros fuel rest Hf [Hq Hc] Ha le last dg; len Hf; flat.
  - rewrite (not_next_is _ _ Ha). reflexivity.
  - unfold p_return_type. step. part (members_written _ _ _ Hm). step.
    destruct ps as [|p1 [|p2 ps']]; [cbn in H2; lia..|]. extents.
  - destruct (single_return_head _ _ _ _ _ _ Htag Hs Hty rest le ea dg) as [Hp Hl]. destruct (writtenA_head _ _ Hty) as [Hne Hy].
    unfold p_return_type. step. rewrite Hp, Hl. part (opt_tag_written _ _ Htag); [|destruct Hs; [intros; apply Hy|reflexivity]]. cbn [pbind].
    rewrite (stream_then_type _ _ _ _ Hs Hty). part (typerefA_written _ _ Hty). cbn [pbind].
    destruct ypts; [case Hne; reflexivity|]. extents.
Qed.

(* Prelude idempotent? Identifier ( parameters ) return type *)
Inductive written_operation : operation -> list ptok -> Prop :=
| wop doc attrs ppts idem ipts name ln en lp ep ps mpts lr er rs rpts :
    written_prelude (doc, attrs) ppts ->
    (idem = false /\ ipts = [] \/ idem = true /\ exists l e, ipts = [(l, TkKw KwIdempotent, e)]) ->
    written_members true ps mpts -> written_return rs rpts ->
    written_operation (mkoperation doc attrs idem (mksident name (mksspan ln en)) ps rs
                         (mksspan (first_start (ipts ++ [(ln, TkIdent name, en)]) L0) (last_end rpts er)))
      (ppts ++ ipts ++ (ln, TkIdent name, en) :: (lp, TkLParen, ep) :: mpts ++ (lr, TkRParen, er) :: rpts).
Definition op_follow (ts : list ptok) : Prop := safe_follow ts /\ ~ next_is TkArrow ts.
Lemma operation_written o pts : written_operation o pts -> forall fuel rest, length pts < fuel -> op_follow rest ->
  reads (p_operation fuel) o pts rest.
Proof.
  destruct 1 as [doc attrs ppts idem ipts name ln en lp ep ps mpts lr er rs rpts Hpre Hi Hm Hr]. intros fuel rest Hf [Hsf Ha] le last dg. len Hf. flat. unfold p_operation.
  part (prelude_written _ _ Hpre); [|destruct Hi as [[_ ->]|(_ & l & e & ->)]; not_next]. cbn [pbind].
  rewrite (opt_kw_written _ _ _ Hi), (next_start_mid [] L0) by reflexivity. step. part (members_written _ _ _ Hm). step. part (return_written _ _ Hr). extents.
Qed.

Inductive written_operations : list operation -> list ptok -> Prop :=
| wos_nil : written_operations [] []
| wos_cons o opts os pts : written_operation o opts -> written_operations os pts -> written_operations (o :: os) (opts ++ pts).
Lemma written_operation_head o pts : written_operation o pts -> forall x,
  0 < length pts /\ decl_first (pts ++ x) /\ forall le last dg, starts_operation (mkps (pts ++ x) le last dg) = true.
Proof.
  destruct 1 as [doc attrs ppts idem ipts name ln en lp ep ps mpts lr er rs rpts Hpre Hi _ _]. intros x.
  destruct Hpre; [destruct Hi as [[_ ->]|(_ & l & e & ->)]|..]; (split; [cbn; lia|split; [exact I|reflexivity]]).
Qed.
Lemma operations_written os pts : written_operations os pts -> forall fuel rest le last dg, S (length pts) < fuel ->
  starts_operation (mkps rest le last dg) = false -> op_follow rest ->
  p_operations fuel (mkps (pts ++ rest) le last dg) = POk_ os (mkps rest le (last_end pts last) dg).
Proof.
  induction 1 as [|o opts os pts Ho Hos IH]; intros [|f] rest le last dg Hf Hs Hr; [lia| |lia|]; cbn [p_operations].
  - cbn [app]. rewrite Hs. reflexivity.
  - destruct (written_operation_head _ _ Ho (pts ++ rest)) as (Hm1 & _ & St).
    assert (F : op_follow (pts ++ rest)).
    { destruct Hos as [|o2 opts2 os2 pts2 Ho2 _]; [exact Hr|]. rewrite <- app_assoc.
      destruct (written_operation_head _ _ Ho2 (pts2 ++ rest)) as (_ & D & _). repeat split; apply (decl_first_next _ _ D); discriminate. }
    len Hf. rewrite <- app_assoc, St. part (operation_written _ _ Ho). cbn [pbind]. part IH. extents.
Qed.

Inductive written_iface : defn -> list ptok -> Prop :=
| wiface doc attrs ppts lk ek name ln en bases bpts lb eb ops opts lr er :
    written_prelude (doc, attrs) ppts -> written_inherits bases bpts -> written_operations ops opts ->
    written_iface (DIface doc attrs (mksident name (mksspan ln en)) bases ops (mksspan lk en))
      (ppts ++ (lk, TkKw KwInterface, ek) :: (ln, TkIdent name, en) :: bpts ++ (lb, TkLBrace, eb) :: opts ++ [(lr, TkRBrace, er)]).
Lemma iface_written d pts : written_iface d pts -> forall fuel rest, length pts < fuel -> reads (parse_defn fuel) d pts rest.
Proof.
  destruct 1 as [doc attrs ppts lk ek name ln en bases bpts lb eb ops opts lr er Hpre Hb Hops]. intros fuel rest Hf le last dg. len Hf. flat. unfold parse_defn.
  part (prelude_written _ _ Hpre). cbn [pbind]. unfold p_definition_after_prelude. step.
  part (inherits_written _ _ Hb). step. part (operations_written _ _ Hops); [|repeat split; not_next]. step. extents.
Qed.

Inductive written_defn : defn -> list ptok -> Prop :=
| wdf_struct d pts : written_struct d pts -> written_defn d pts
| wdf_enum d pts : written_enum d pts -> written_defn d pts
| wdf_iface d pts : written_iface d pts -> written_defn d pts
| wdf_custom d pts : written_custom d pts -> written_defn d pts
| wdf_alias d pts : written_alias d pts -> written_defn d pts.
Lemma defn_written d pts : written_defn d pts -> forall fuel rest, length pts < fuel -> safe_follow rest -> reads (parse_defn fuel) d pts rest.
Proof. destruct 1; eauto using struct_written, enum_written, iface_written, custom_written, alias_written. Qed.
Lemma written_defn_head d pts x : written_defn d pts -> 0 < length pts /\ decl_first (pts ++ x).
Proof.
  destruct 1 as [d pts H|d pts H|d pts H|d pts H|d pts H]; destruct H; (eapply prelude_first; [eassumption|]); try exact I.
  - match goal with H : _ \/ _ |- _ => destruct H as [[_ ->]|(_ & ? & ? & ->)] end; exact I.
  - match goal with H : written_mods _ _ _ |- _ => destruct H end; exact I.
Qed.
Inductive written_defns : list defn -> list ptok -> Prop :=
| wds_nil : written_defns [] []
| wds_cons d dpts ds pts : written_defn d dpts -> written_defns ds pts -> written_defns (d :: ds) (dpts ++ pts).
Lemma written_defns_follow ds pts : written_defns ds pts -> safe_follow pts.
Proof. destruct 1 as [|d dpts ds' pts' Hd _]; [split; intros []|]. apply decl_first_safe, (written_defn_head _ _ _ Hd). Qed.
Lemma pbind_assoc {A B C} (p : pres A) (f : A -> pstate -> pres B) (g : B -> pstate -> pres C) :
  pbind (pbind p f) g = pbind p (fun a s => pbind (f a s) g).
Proof. destruct p; reflexivity. Qed.
Lemma p_definitions_S ts : decl_first ts -> forall f le last dg, p_definitions (S f) (mkps ts le last dg) =
  plet d, s2 <- parse_defn f (mkps ts le last dg) ;; plet r, s3 <- p_definitions f s2 ;; POk_ (d :: r) s3.
Proof. destruct ts; [intros []|intros _ f le last dg]. unfold parse_defn. rewrite pbind_assoc. reflexivity. Qed.
Lemma defns_written ds pts : written_defns ds pts -> forall fuel last dg, S (length pts) < fuel ->
  p_definitions fuel (mkps pts None last dg) = POk_ ds (mkps [] None (last_end pts last) dg).
Proof.
  induction 1 as [|d dpts ds pts Hd Hds IH]; intros [|f] last dg Hf; [lia|reflexivity|lia|].
  destruct (written_defn_head _ _ pts Hd) as [Hm1 D]. len Hf.
  rewrite (p_definitions_S _ D). part (defn_written _ _ Hd); [|apply (written_defns_follow _ _ Hds)]. cbn [pbind]. part IH. extents.
Qed.

(* a whole file: file attributes are not written; module declaration with its attributes, then definitions of any kind, then
   the end of the input *)
Inductive written_file_all : file -> list ptok -> Prop :=
| wfile_all mattrs ppts lm em first more mpts ln en ds dpts :
    written_prelude ([], mattrs) ppts -> spells_tail more mpts -> written_defns ds dpts ->
    written_file_all (mkfile [] (Some (mkmodul [] mattrs (mksident (joined false first more) (mksspan ln (last_end mpts en))) (mksspan lm (last_end mpts en)))) ds)
      (ppts ++ (lm, TkKw KwModule, em) :: (ln, TkIdent first, en) :: mpts ++ dpts).
Lemma file_written_fuel f pts : written_file_all f pts -> forall fuel start, S (length pts) < fuel ->
  p_file fuel (mkps pts None start []) = POk_ f (mkps [] None (last_end pts start) []).
Proof.
  destruct 1 as [mattrs ppts lm em first more mpts ln en ds dpts Hpre Hs Hds]. intros [|fuel] start Hf; [lia|].
  destruct (prelude_first _ _ ((lm, TkKw KwModule, em) :: (ln, TkIdent first, en) :: mpts ++ dpts) [] Hpre I) as [_ D]. rewrite app_nil_r in D. len Hf.
  unfold p_file. cbn [p_file_attributes]. rewrite (not_next_is _ _ (decl_first_next _ TkDLBracket D ltac:(discriminate))). cbn [pbind ps_toks].
  destruct (ppts ++ (lm, TkKw KwModule, em) :: (ln, TkIdent first, en) :: mpts ++ dpts) eqn:E; [case D|]. rewrite <- E.
  part (prelude_written _ _ Hpre). step.
  part (relative_identifier_written _ _ Hs); [|apply (written_defns_follow _ _ Hds)]. cbn [pbind fst snd].
  part (defns_written _ _ Hds). extents.
Qed.
(* C02, C09: the tokens of a written file, whatever their locations, are read back as that file: everything in source order, nothing
   else, no diagnostic, every location the extent of its own tokens *)
Theorem file_written_all f pts : written_file_all f pts -> forall start,
  p_file (S (S (length pts))) (mkps pts None start []) = POk_ f (mkps [] None (last_end pts start) []).
Proof. intros H start. apply (file_written_fuel _ _ H). lia. Qed.
Lemma written_structs_defns ds pts : written_structs ds pts -> written_defns ds pts.
Proof. induction 1 as [|d dpts ds pts Hd _ IH]; constructor; [apply wdf_struct|]; assumption. Qed.
(* C02, C09: likewise for `written_file` *)
Theorem file_written f pts : written_file f pts -> forall start,
  p_file (S (S (length pts))) (mkps pts None start []) = POk_ f (mkps [] None (last_end pts start) []).
Proof.
  destruct 1 as [mattrs ppts lm em first more mpts ln en ds dpts Hpre Hs Hds]. apply file_written_all.
  exact (wfile_all _ _ _ _ _ _ _ _ _ _ _ Hpre Hs (written_structs_defns _ _ Hds)).
Qed.

(* non-vacuity: the tokens (at some locations) of
     module M  enum E { A = -1, B(x: bool) }  interface I : J { idempotent op(a: bool) -> bool }  custom C  typealias Y = bool
   spell a file with one definition of each of these kinds *)
Definition T (t : token) : ptok := (L0, t, L0).
Definition ex_bool : list ptok := [T (TkKw (KwPrim PBool))].
Definition ex_J : list ptok := [T (TkIdent [74%N])].
Definition ex_field_x : list ptok := [T (TkIdent [120%N]); T TkColon] ++ ex_bool.
Definition ex_param_a : list ptok := [T (TkIdent [97%N]); T TkColon] ++ ex_bool.
Definition ex_enum : list ptok :=
  [T (TkKw KwEnum); T (TkIdent [69%N]); T TkLBrace;
   T (TkIdent [65%N]); T TkEq; T TkMinus; T (TkInt [49%N]); T TkComma;
   T (TkIdent [66%N]); T TkLParen] ++ ex_field_x ++ [T TkRParen; T TkRBrace].
Definition ex_iface : list ptok :=
  [T (TkKw KwInterface); T (TkIdent [73%N]); T TkColon] ++ ex_J ++ [T TkLBrace; T (TkKw KwIdempotent); T (TkIdent [111%N; 112%N]); T TkLParen] ++ ex_param_a ++
  [T TkRParen; T TkArrow] ++ ex_bool ++ [T TkRBrace].
Definition ex_custom : list ptok := [T (TkKw KwCustom); T (TkIdent [67%N])].
Definition ex_alias : list ptok := [T (TkKw KwTypeAlias); T (TkIdent [89%N]); T TkEq] ++ ex_bool.
Definition ex_all_tokens : list ptok := [T (TkKw KwModule); T (TkIdent [77%N])] ++ ex_enum ++ ex_iface ++ ex_custom ++ ex_alias.

Lemma ex_bool_written : exists t, writtenA t ex_bool.
Proof. eexists. exact (wa_plain [] [] (DPrim PBool) ex_bool wla_nil (wad_prim PBool L0 L0)). Qed.
Lemma ex_J_written : exists t, writtenA t ex_J.
Proof. eexists. exact (wa_plain [] [] _ ex_J wla_nil (wad_rel [74%N] [] [] L0 L0 st_nil)). Qed.
Lemma ex_member_written ip c : exists m, written_member ip m ([T (TkIdent [c]); T TkColon] ++ ex_bool).
Proof.
  destruct ex_bool_written as [t Ht]. eexists.
  exact (wm ip [] [] [] None [] [c] L0 L0 L0 L0 false [] t ex_bool wp_nil (fun _ => eq_refl) wt_none (or_introl (conj eq_refl eq_refl)) Ht).
Qed.
Lemma ex_members_written ip c : exists ms, written_members ip ms ([T (TkIdent [c]); T TkColon] ++ ex_bool) /\ length ms = 1.
Proof.
  destruct (ex_member_written ip c) as [m Hm]. exists [m]. split; [|reflexivity].
  exact (wms_cons ip m _ [] [] [] Hm (or_introl eq_refl) (wms_nil ip)).
Qed.
Lemma ex_enum_written : exists d, written_defn d ex_enum.
Proof.
  destruct (ex_members_written false 120%N) as [fs [Hfs _]].
  pose proof (wen None [] [] [] [65%N] L0 L0 None [] _ _ wp_nil wef_none (wv_neg [49%N] 1%Z 10%N L0 L0 L0 L0 L0 L0 eq_refl)) as HA.
  pose proof (fun prev => wen prev [] [] [] [66%N] L0 L0 (Some fs) _ None [] wp_nil (wef_some fs _ L0 L0 L0 L0 Hfs) wv_none) as HB.
  pose proof (wes_cons None _ _ [T TkComma] _ _ HA (or_intror (ex_intro _ L0 (ex_intro _ L0 eq_refl)))
                (wes_cons _ _ _ [] [] [] (HB _) (or_introl eq_refl) (wes_nil _))) as HE.
  eexists. apply wdf_enum.
  exact (wenum [] [] [] false false [] L0 L0 [69%N] L0 L0 None [] L0 L0 _ _ L0 L0 wp_nil wmod_ff wu_none HE).
Qed.
Lemma ex_iface_written : exists d, written_defn d ex_iface.
Proof.
  destruct ex_bool_written as [tb Hb]. destruct ex_J_written as [tj Hj]. destruct (ex_members_written true 97%N) as [ps [Hps _]].
  pose proof (wr_single None [] false [] tb ex_bool L0 L0 wt_none wst_no Hb) as HR.
  pose proof (wop [] [] [] true [T (TkKw KwIdempotent)] [111%N; 112%N] L0 L0 L0 L0 ps _ L0 L0 _ _ wp_nil
                (or_intror (conj eq_refl (ex_intro _ L0 (ex_intro _ L0 eq_refl)))) Hps HR) as HO.
  pose proof (wos_cons _ _ [] [] HO wos_nil) as HOs.
  eexists. apply wdf_iface.
  exact (wiface [] [] [] L0 L0 [73%N] L0 L0 [tj] _ L0 L0 _ _ L0 L0 wp_nil (wi_some [tj] ex_J L0 L0 (wb_last tj ex_J Hj)) HOs).
Qed.
Lemma ex_custom_written : exists d, written_defn d ex_custom.
Proof. eexists. apply wdf_custom. exact (wcustom [] [] [] L0 L0 [67%N] L0 L0 wp_nil). Qed.
Lemma ex_alias_written : exists d, written_defn d ex_alias.
Proof. destruct ex_bool_written as [tb Hb]. eexists. apply wdf_alias. exact (walias [] [] [] L0 L0 [89%N] L0 L0 L0 L0 tb ex_bool wp_nil Hb). Qed.
Example ex_written_all : exists f, written_file_all f ex_all_tokens /\ length (f_defs f) = 4.
Proof.
  destruct ex_enum_written as [d1 H1]. destruct ex_iface_written as [d2 H2]. destruct ex_custom_written as [d3 H3]. destruct ex_alias_written as [d4 H4].
  pose proof (wds_cons _ _ _ _ H1 (wds_cons _ _ _ _ H2 (wds_cons _ _ _ _ H3 (wds_cons _ _ _ _ H4 wds_nil)))) as HD.
  eexists. split; [exact (wfile_all [] [] L0 L0 [77%N] [] [] L0 L0 _ _ wp_nil st_nil HD)|reflexivity].
Qed.
