(* The model parser is total (C01): with the fuel that parse_blocks gives it -- number of tokens + 2 -- no production ever
   reports the model's out-of-fuel artefact, on any token sequence, well-formed or not; every production returns with no more
   tokens than it was given, and the productions that loops iterate over consume at least one token when they succeed (which is
   why the loops end).  Each production P has a slack c_P: it never runs out of fuel when  tokens + c_P <= fuel. *)
From Coq Require Import List Bool ZArith Lia.
From SliceV Require Import Syntax.Tokens Syntax.Lexer Syntax.Parser.
Import ListNotations.
Local Open Scope nat_scope.

Definition n (s : pstate) : nat := length (ps_toks s).
(* not the fuel artefact and, on success, at least k tokens consumed *)
Definition ok_res {A} (k : nat) (s : pstate) (r : pres A) : Prop :=
  match r with POk_ _ s' => n s' + k <= n s | PErr_ e => e <> PeFuel end.

Lemma fail_ok {A} k s0 s : ok_res k s0 (@fail_here A s).
Proof. unfold fail_here. destruct (ps_toks s); [destruct (ps_lexerr s)|]; cbn; discriminate. Qed.
Lemma adv_cons s p r : ps_toks s = p :: r -> n (advance s) + 1 = n s.
Proof. unfold advance, n. intros ->. destruct p as [[l t] e]. cbn. lia. Qed.
Lemma is_tok_adv s t : is_tok s t = true -> n (advance s) + 1 = n s.
Proof. unfold is_tok, peek. destruct (ps_toks s) eqn:E; [discriminate|]. intros _. exact (adv_cons _ _ _ E). Qed.
Lemma is_kw_adv s k : is_kw s k = true -> n (advance s) + 1 = n s.
Proof. unfold is_kw, peek. destruct (ps_toks s) eqn:E; [discriminate|]. intros _. exact (adv_cons _ _ _ E). Qed.
Lemma adv_le s : n (advance s) <= n s.
Proof. destruct (ps_toks s) eqn:E; [unfold advance; rewrite E; lia|apply adv_cons in E; lia]. Qed.
Lemma add_diag_n s d sp : n (add_diag s d sp) = n s.
Proof. reflexivity. Qed.
Lemma opt_tok_n t s : n (snd (opt_tok t s)) <= n s.
Proof. unfold opt_tok. destruct (is_tok s t); cbn [snd]; [apply adv_le|lia]. Qed.
Lemma opt_kw_n k s : n (snd (opt_kw k s)) <= n s.
Proof. unfold opt_kw. destruct (is_kw s k); cbn [snd]; [apply adv_le|lia]. Qed.
Lemma expect_ok t s : ok_res 1 s (expect t s).
Proof. unfold expect. destruct (is_tok s t) eqn:E; [cbn; apply is_tok_adv in E; lia|apply fail_ok]. Qed.
Lemma expect_kw_ok k s : ok_res 1 s (expect_kw k s).
Proof. unfold expect_kw. destruct (is_kw s k) eqn:E; [cbn; apply is_kw_adv in E; lia|apply fail_ok]. Qed.
Lemma ok_weaken {A} k k' s s0 (r : pres A) : ok_res k s r -> k' + n s <= k + n s0 -> ok_res k' s0 r.
Proof. destruct r; cbn; [lia|tauto]. Qed.

(* How a production is followed: at s there is fuel for c more tokens than are left, and r has k tokens still to consume.  What
   a part consumes is added to c and taken from k, and what follows it is measured from where it stopped, so all the arithmetic
   is between numerals. *)
Definition fine {A} (fuel c k : nat) (s : pstate) (r : pres A) : Prop := n s + c <= fuel -> ok_res k s r.
Lemma ok_bind {A B} j k c fuel t (r : pres A) (f : A -> pstate -> pres B) :
  fine fuel c j t r -> (forall a s, fine fuel (c + j) (k - j) s (f a s)) -> fine fuel c k t (pbind r f).
Proof. intros R K F. specialize (R F). destruct r as [a s|e]; cbn in *; [|exact R]. eapply ok_weaken; [apply K|]; lia. Qed.
Lemma ok_adv {A k c fuel s} {r : pres A} : n (advance s) + 1 = n s -> fine fuel (c + 1) (k - 1) (advance s) r -> fine fuel c k s r.
Proof. intros E K F. eapply ok_weaken; [apply K|]; lia. Qed.
(* an optional symbol *)
Lemma let_pair_ok {B} k c fuel s (x : bool * pstate) (f : bool -> pstate -> pres B) :
  n (snd x) <= n s -> (forall o s1, fine fuel c k s1 (f o s1)) -> fine fuel c k s (let '(o, s1) := x in f o s1).
Proof. destruct x as [o s1]. cbn [snd]. intros Q K F. eapply ok_weaken; [apply K|]; lia. Qed.
(* where the test for the next token succeeds, the token is there to be consumed *)
Lemma if_tok {A} t k c fuel s (p q : pres A) :
  fine fuel (c + 1) (k - 1) (advance s) p -> fine fuel c k s q -> fine fuel c k s (if is_tok s t then p else q).
Proof. destruct (is_tok s t) eqn:E; [intros P _; exact (ok_adv (is_tok_adv _ _ E) P)|auto]. Qed.
Lemma if_kw {A} w k c fuel s (p q : pres A) :
  fine fuel (c + 1) (k - 1) (advance s) p -> fine fuel c k s q -> fine fuel c k s (if is_kw s w then p else q).
Proof. destruct (is_kw s w) eqn:E; [intros P _; exact (ok_adv (is_kw_adv _ _ E) P)|auto]. Qed.
(* a production that takes no fuel *)
Lemma no_fuel {A} k s (r : pres A) : (forall fuel, fine fuel 0 k s r) -> ok_res k s r.
Proof. intros H. exact (H _ (le_n _)). Qed.

(* the case split on the next token; a token that is there will be consumed *)
Lemma toks_case_adv s (P : list ptok -> Prop) : P [] -> (forall l t e r, n (advance s) + 1 = n s -> P ((l, t, e) :: r)) -> P (ps_toks s).
Proof. intros H0 H1. destruct (ps_toks s) as [|[[l t] e] r] eqn:E; [exact H0|]. exact (H1 l t e r (adv_cons _ _ _ E)). Qed.

(* the next part of a chain is fine by L, whose fuel condition follows from the fuel to spare; go on with what it returns *)
Ltac bind L := eapply ok_bind; [intro; apply L; lia|intros ? ?; cbn [Nat.sub Nat.add]].
(* the end of a chain: nothing left to consume, and the state is the one reached (diagnostics aside) *)
Ltac finish := intros _; cbn [ok_res]; rewrite Nat.add_0_r; apply le_n.

Lemma p_identifier_ok s : ok_res 1 s (p_identifier s).
Proof.
  unfold p_identifier. pose proof (@fail_ok sident 1 s s) as F.
  apply toks_case_adv; [exact F|intros l t e r E]. destruct t; try exact F. cbn [ok_res]. lia.
Qed.
Lemma p_scoped_tail_ok fuel : forall acc s, n s + 1 <= fuel -> ok_res 0 s (p_scoped_tail fuel acc s).
Proof.
  induction fuel as [|f IH]; intros acc s; [lia|]. cbn [p_scoped_tail].
  apply if_tok; [|finish]. cbv zeta. intros H.
  pose proof (@fail_ok (list N) 0 (advance s) (advance s)) as F.
  apply toks_case_adv; [exact F|intros l t e r E2]. destruct t; try exact F.
  revert H. apply (ok_adv E2). intro. apply IH. lia.
Qed.
Lemma p_relative_identifier_ok fuel s : n s <= fuel -> ok_res 1 s (p_relative_identifier fuel s).
Proof.
  rewrite <- (Nat.add_0_r (n s)). intros H. unfold p_relative_identifier. pose proof (@fail_ok sident 1 s s) as F.
  apply toks_case_adv; [exact F|intros l t e r E]. destruct t; try exact F.
  revert H. apply (ok_adv E). bind p_scoped_tail_ok. finish.
Qed.
Lemma p_global_identifier_ok fuel s : n s <= fuel -> ok_res 1 s (p_global_identifier fuel s).
Proof.
  rewrite <- (Nat.add_0_r (n s)). unfold p_global_identifier. apply if_tok; [|intros _; apply fail_ok]. cbv zeta. intros H.
  pose proof (@fail_ok sident 0 (advance s) (advance s)) as F.
  apply toks_case_adv; [exact F|intros l t e r E2]. destruct t; try exact F.
  revert H. apply (ok_adv E2). bind p_scoped_tail_ok. finish.
Qed.
Lemma p_integer_ok s : ok_res 1 s (p_integer s).
Proof.
  unfold p_integer. pose proof (@fail_ok (Z * sspan) 1 s s) as F.
  apply toks_case_adv; [exact F|intros l t e r E]. destruct t; try exact F. cbv zeta.
  destruct (parse_int _) as [[z| |] b]; cbn [ok_res]; rewrite ?add_diag_n; lia.
Qed.
Lemma p_signed_integer_ok s : ok_res 1 s (p_signed_integer s).
Proof.
  apply no_fuel. intros fuel. unfold p_signed_integer. apply if_tok; [|intros _; apply p_integer_ok]. cbv zeta. bind p_integer_ok. finish.
Qed.
Lemma p_tag_ok s : ok_res 1 s (p_tag s).
Proof.
  apply no_fuel. intros fuel. unfold p_tag. bind expect_kw_ok. bind expect_ok. bind p_signed_integer_ok. bind expect_ok. cbv zeta.
  destruct (_ || _)%Z; finish.
Qed.

Lemma p_attr_args_ok fuel : forall s, n s + 1 <= fuel -> ok_res 0 s (p_attr_args fuel s).
Proof.
  induction fuel as [|f IH]; intros s; [lia|]. cbn [p_attr_args]. assert (D : fine (S f) 1 0 s (POk_ (@nil (list N)) s)) by finish.
  apply toks_case_adv; [exact D|intros l t e r E]. destruct t; try exact D.
  all: apply (ok_adv E); cbv zeta; apply if_tok; [|finish].
  all: destruct (is_tok (advance (advance s)) TkRParen); [finish|].
  all: eapply ok_bind; [intro; apply IH; lia|intros args s3]; destruct args; [intros _; apply fail_ok|finish].
Qed.
Lemma p_attribute_ok fuel s : n s <= fuel -> ok_res 1 s (p_attribute fuel s).
Proof.
  rewrite <- (Nat.add_0_r (n s)). unfold p_attribute. cbv zeta. bind p_relative_identifier_ok.
  apply if_tok; [|finish]. bind p_attr_args_ok. bind expect_ok. finish.
Qed.
Lemma p_local_attribute_ok fuel s : n s <= fuel -> ok_res 1 s (p_local_attribute fuel s).
Proof. rewrite <- (Nat.add_0_r (n s)). unfold p_local_attribute. bind expect_ok. bind p_attribute_ok. bind expect_ok. finish. Qed.
Lemma p_local_attributes_ok fuel : forall s, n s + 1 <= fuel -> ok_res 0 s (p_local_attributes fuel s).
Proof.
  induction fuel as [|f IH]; intros s; [lia|]. cbn [p_local_attributes].
  destruct (is_tok s TkLBracket); [|finish]. bind p_local_attribute_ok. bind IH. finish.
Qed.
Lemma p_file_attributes_ok fuel : forall s, n s + 1 <= fuel -> ok_res 0 s (p_file_attributes fuel s).
Proof.
  induction fuel as [|f IH]; intros s; [lia|]. cbn [p_file_attributes].
  apply if_tok; [|finish]. bind p_attribute_ok. bind expect_ok. bind IH. finish.
Qed.
Lemma p_prelude_ok fuel : forall s, n s + 1 <= fuel -> ok_res 0 s (p_prelude fuel s).
Proof.
  induction fuel as [|f IH]; intros s; [lia|]. cbn [p_prelude].
  assert (D : fine (S f) 1 0 s (POk_ (@nil (list N * sspan), @nil attr) s)) by finish.
  apply toks_case_adv; [exact D|intros l t e r E]. destruct t; try exact D.
  - apply (ok_adv E). bind IH. finish.
  - bind p_local_attribute_ok. bind IH. finish.
Qed.
Lemma p_typeref_ok fuel : forall s, n s + 2 <= fuel -> ok_res 1 s (p_typeref fuel s).
Proof.
  induction fuel as [|f IH]; intros s; [lia|]. cbn [p_typeref]. cbv zeta.
  eapply ok_bind; [intro; apply p_local_attributes_ok; lia|intros attrs s1]. eapply (ok_bind 1).
  - intros H. pose proof (@fail_ok stdef 1 s1 s1) as F.
    apply toks_case_adv; [exact F|intros l t e r E].
    destruct t; try exact F.
    + revert H. bind p_relative_identifier_ok. finish.
    + destruct k; try exact F; revert H; apply (ok_adv E).
      * bind expect_ok. bind IH. bind expect_ok. bind IH. bind expect_ok. finish.
      * bind expect_ok. bind IH. bind expect_ok. finish.
      * bind expect_ok. bind IH. bind expect_ok. bind IH. bind expect_ok. finish.
      * finish.
    + revert H. bind p_global_identifier_ok. finish.
  - intros d s2. eapply let_pair_ok; [apply opt_tok_n|intros o s3]. finish.
Qed.

Lemma opt_tag_ok s : ok_res 0 s (if is_kw s KwTag then plet t, a <- p_tag s ;; POk_ (Some t) a else POk_ None s).
Proof. apply no_fuel. intros fuel. destruct (is_kw s KwTag); [|finish]. bind p_tag_ok. finish. Qed.
Lemma p_member_ok ip fuel s : n s + 1 <= fuel -> ok_res 1 s (p_member ip fuel s).
Proof.
  unfold p_member. eapply ok_bind; [intro; apply p_prelude_ok; lia|intros pre s1]. cbv zeta. bind opt_tag_ok. bind p_identifier_ok. bind expect_ok.
  eapply let_pair_ok; [destruct ip; [apply opt_kw_n|apply le_n]|intros stream s5].
  bind p_typeref_ok. destruct ip; [destruct (fst pre)|]; finish.
Qed.
Lemma p_members_ok ip fuel : forall s, n s + 2 <= fuel -> ok_res 0 s (p_members ip fuel s).
Proof.
  induction fuel as [|f IH]; intros s; [lia|]. cbn [p_members].
  destruct (starts_member s); [|finish]. bind p_member_ok. eapply let_pair_ok; [apply opt_tok_n|intros c s2]. bind IH. finish.
Qed.
Lemma p_return_type_ok fuel s : n s + 1 <= fuel -> ok_res 1 s (p_return_type fuel s).
Proof.
  unfold p_return_type. bind expect_ok. cbv zeta. apply if_tok.
  - eapply ok_bind; [intro; apply p_members_ok; lia|intros ps s2]. bind expect_ok.
    destruct ps as [|p1 [|p2 ps]]; finish.
  - bind opt_tag_ok. eapply let_pair_ok; [apply opt_kw_n|intros stream s3]. bind p_typeref_ok. finish.
Qed.
Lemma p_operation_ok fuel s : n s + 1 <= fuel -> ok_res 1 s (p_operation fuel s).
Proof.
  unfold p_operation. bind p_prelude_ok. cbv zeta. eapply let_pair_ok; [apply opt_kw_n|intros idem s2].
  bind p_identifier_ok. bind expect_ok. bind p_members_ok. bind expect_ok. eapply (ok_bind 0).
  - destruct (is_tok _ TkArrow); [|finish]. intro. eapply ok_weaken; [apply p_return_type_ok|]; lia.
  - intros rs s7. finish.
Qed.
Lemma p_operations_ok fuel : forall s, n s + 2 <= fuel -> ok_res 0 s (p_operations fuel s).
Proof.
  induction fuel as [|f IH]; intros s; [lia|]. cbn [p_operations].
  destruct (starts_operation s); [|finish]. bind p_operation_ok. bind IH. finish.
Qed.
Lemma p_enumerator_ok fuel prev s : n s + 1 <= fuel -> ok_res 1 s (p_enumerator fuel prev s).
Proof.
  unfold p_enumerator. bind p_prelude_ok. cbv zeta. bind p_identifier_ok. eapply (ok_bind 0).
  { apply if_tok; [|finish]. bind p_members_ok. bind expect_ok. finish. }
  intros fields s3. eapply (ok_bind 0).
  { apply if_tok; [|finish]. bind p_signed_integer_ok. finish. }
  intros value s4. finish.
Qed.
Lemma p_enumerators_ok fuel : forall prev s, n s + 2 <= fuel -> ok_res 0 s (p_enumerators fuel prev s).
Proof.
  induction fuel as [|f IH]; intros prev s; [lia|]. cbn [p_enumerators].
  destruct (starts_enumerator s); [|finish]. bind p_enumerator_ok. eapply let_pair_ok; [apply opt_tok_n|intros c s2]. bind IH. finish.
Qed.
Lemma p_bases_ok fuel : forall s, n s + 3 <= fuel -> ok_res 1 s (p_bases fuel s).
Proof.
  induction fuel as [|f IH]; intros s; [lia|]. cbn [p_bases].
  bind p_typeref_ok. apply if_tok; [|finish]. cbv zeta.
  destruct (is_tok (advance _) TkLBrace); [finish|]. bind IH. finish.
Qed.

Lemma p_definition_after_prelude_ok fuel pre s : n s <= fuel -> ok_res 1 s (p_definition_after_prelude fuel pre s).
Proof.
  rewrite <- (Nat.add_0_r (n s)). unfold p_definition_after_prelude. cbv zeta. destruct pre as [doc attrs].
  eapply let_pair_ok; [apply opt_kw_n|intros compact s1]. apply if_kw.
  { bind p_identifier_ok. bind expect_ok. bind p_members_ok. bind expect_ok. finish. }
  eapply let_pair_ok; [apply opt_kw_n|intros unchecked s2]. apply if_kw.
  { bind p_identifier_ok. eapply (ok_bind 0).
    { apply if_tok; [|finish]. bind p_typeref_ok. finish. }
    intros under s4. bind expect_ok. bind p_enumerators_ok. bind expect_ok. finish. }
  destruct (compact || unchecked); [intros _; apply fail_ok|].
  apply if_kw.
  { bind p_identifier_ok. eapply (ok_bind 0).
    { apply if_tok; [|finish]. intro. eapply ok_weaken; [apply p_bases_ok|]; lia. }
    intros bases s4. bind expect_ok. bind p_operations_ok. bind expect_ok. finish. }
  apply if_kw.
  { bind p_identifier_ok. finish. }
  apply if_kw; [|intros _; apply fail_ok].
  bind p_identifier_ok. bind expect_ok. bind p_typeref_ok. finish.
Qed.
Lemma eof_ok {A} (v : A) s : ok_res 0 s (match ps_lexerr s with Some e => PErr_ (PeLex e) | None => POk_ v s end).
Proof. destruct (ps_lexerr s); cbn; [discriminate|lia]. Qed.
Lemma p_definitions_ok fuel : forall s, n s + 2 <= fuel -> ok_res 0 s (p_definitions fuel s).
Proof.
  induction fuel as [|f IH]; intros s; [lia|]. cbn [p_definitions].
  destruct (ps_toks s); [intros _; apply eof_ok|]. bind p_prelude_ok. bind p_definition_after_prelude_ok. bind IH. finish.
Qed.
(* C01: fuel of one more than the number of tokens is enough; parse_blocks gives one more than that *)
Theorem p_file_ok fuel s : n s + 1 <= fuel -> ok_res 0 s (p_file fuel s).
Proof.
  unfold p_file. bind p_file_attributes_ok. destruct (ps_toks _); [intros _; apply eof_ok|].
  eapply ok_bind; [intro; apply p_prelude_ok; lia|intros pre s2]. apply if_kw.
  - cbv zeta. bind p_relative_identifier_ok. eapply (ok_bind 0).
    + intro. destruct (fst pre); (eapply ok_weaken; [apply p_definitions_ok|]); rewrite ?add_diag_n; lia.
    + intros ds s5. finish.
  - bind p_definition_after_prelude_ok. bind p_definitions_ok. finish.
Qed.
Corollary parse_blocks_total bs : parse_blocks bs <> PErr_ PeFuel.
Proof.
  unfold parse_blocks. destruct (lex_blocks bs false) as [ts er]. intros X.
  pose proof (p_file_ok (S (S (length ts))) (mkps ts er (mkloc 1 1) []) ltac:(cbn; lia)) as H. rewrite X in H. exact (H eq_refl).
Qed.
Corollary parse_text_total text : parse_text text <> PErr_ PeFuel.
Proof. apply parse_blocks_total. Qed.
