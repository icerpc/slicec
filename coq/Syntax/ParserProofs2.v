(* Token-level read-back, continued (C02, C09): attributes with arguments, type references carrying attributes, preludes
   (doc comment lines and attributes in any order), tags, fields and parameters, member lists with optional commas, and
   struct definitions -- for arbitrary token locations, with every recorded location equal to the extent of its own tokens. *)
From Coq Require Import List Bool NArith ZArith Arith Lia.
From SliceV Require Import Cli.PluginSpec Doc.Comment Syntax.Tokens Syntax.Lexer Syntax.Parser Syntax.ParserProofs.
Import ListNotations.
Local Open Scope nat_scope.

Inductive written_arg : list N -> ptok -> Prop :=
| warg_ident a l e : written_arg a (l, TkIdent a, e)
| warg_str raw l e : written_arg (unescape false raw) (l, TkStr raw, e).
Inductive written_args : list (list N) -> list ptok -> Prop :=
| wargs_nil : written_args [] []
| wargs_last a t : written_arg a t -> written_args [a] [t]
| wargs_last_comma a t l e : written_arg a t -> written_args [a] [t; (l, TkComma, e)]
| wargs_cons a t l e b r pts : written_arg a t -> written_args (b :: r) pts -> written_args (a :: b :: r) (t :: (l, TkComma, e) :: pts).

Lemma attr_arg_written a t : written_arg a t -> forall f r le last dg, p_attr_args (S f) (mkps (t :: r) le last dg) =
  let s1 := mkps r le (pend t) dg in
  if is_tok s1 TkComma then
    let s2 := advance s1 in
    if is_tok s2 TkRParen then POk_ [a] s2 else plet x, s3 <- p_attr_args f s2 ;; (match x with [] => fail_here s2 | _ => POk_ (a :: x) s3 end)
  else POk_ [a] s1.
Proof. destruct 1; reflexivity. Qed.
Lemma written_args_head args pts : written_args args pts -> args <> [] -> forall x le last dg, is_tok (mkps (pts ++ x) le last dg) TkRParen = false.
Proof. destruct 1 as [|? ? []|? ? ? ? []|? ? ? ? ? ? ? [] _]; [congruence|reflexivity..]. Qed.
Lemma attr_args_written args pts : written_args args pts -> forall fuel lr er rest, length pts < fuel ->
  reads (p_attr_args fuel) args pts ((lr, TkRParen, er) :: rest).
Proof.
  induction 1 as [|a t Ha|a t l e Ha|a t l e b r pts Ha Hw IH]; intros [|f] lr er rest Hf le last dg; try (exfalso; lia);
    cbn [app]; rewrite ?(attr_arg_written _ _ Ha); try reflexivity.
  len Hf. step. rewrite (written_args_head _ _ Hw) by discriminate. part IH. extents.
Qed.

Inductive written_attr : attr -> list ptok -> Prop :=
| wattr_plain first more pts l e : spells_tail more pts ->
    written_attr (mkattr (joined false first more) [] (mksspan l (last_end pts e))) ((l, TkIdent first, e) :: pts)
| wattr_args first more pts l e args apts lp ep lr er : spells_tail more pts -> written_args args apts ->
    written_attr (mkattr (joined false first more) args (mksspan l er)) ((l, TkIdent first, e) :: pts ++ (lp, TkLParen, ep) :: apts ++ [(lr, TkRParen, er)]).
Lemma attr_written a pts : written_attr a pts -> forall fuel rest le last dg, length pts < fuel -> ~ next_is TkDColon rest -> ~ next_is TkLParen rest ->
  p_attribute fuel (mkps (pts ++ rest) le last dg) = POk_ a (mkps rest le (last_end pts last) dg).
Proof.
  destruct 1 as [first more pts l e Hs|first more pts l e args apts lp ep lr er Hs Ha]; intros fuel rest le last dg Hf Hc Hp; len Hf; flat; unfold p_attribute;
    part (relative_identifier_written _ _ Hs); step.
  - rewrite (not_next_is _ _ Hp). extents.
  - part (attr_args_written _ _ Ha). step. extents.
Qed.
Lemma local_attribute_written a pts : written_attr a pts -> forall l e l2 e2 fuel rest le last dg, length pts < fuel ->
  p_local_attribute fuel (mkps ((l, TkLBracket, e) :: pts ++ (l2, TkRBracket, e2) :: rest) le last dg) = POk_ a (mkps rest le e2 dg).
Proof. intros Ha l e l2 e2 fuel rest le last dg Hf. unfold p_local_attribute. step. part (attr_written _ _ Ha). reflexivity. Qed.

(* LocalAttribute*: [ attribute ] ... *)
Inductive written_lattrs : list attr -> list ptok -> Prop :=
| wla_nil : written_lattrs [] []
| wla_cons a apts r pts l e l2 e2 : written_attr a apts -> written_lattrs r pts ->
    written_lattrs (a :: r) ((l, TkLBracket, e) :: apts ++ (l2, TkRBracket, e2) :: pts).
Lemma lattrs_written attrs pts : written_lattrs attrs pts -> forall fuel rest, length pts < fuel -> ~ next_is TkLBracket rest ->
  reads (p_local_attributes fuel) attrs pts rest.
Proof.
  induction 1 as [|a apts r pts l e l2 e2 Ha _ IH]; intros [|f] rest Hf Hr le last dg; [lia| |lia|]; cbn [app p_local_attributes].
  - rewrite (not_next_is _ _ Hr). reflexivity.
  - len Hf. flat. step. part (local_attribute_written _ _ Ha). step. part IH. extents.
Qed.

Inductive writtenA : stref -> list ptok -> Prop :=
| wa_plain attrs apts d pts : written_lattrs attrs apts -> writtenA_d d pts ->
    writtenA (STRef (mksspan (first_start (apts ++ pts) L0) (last_end pts L0)) false attrs d) (apts ++ pts)
| wa_opt attrs apts d pts l e : written_lattrs attrs apts -> writtenA_d d pts ->
    writtenA (STRef (mksspan (first_start (apts ++ pts) L0) e) true attrs d) (apts ++ pts ++ [(l, TkQuestion, e)])
with writtenA_d : stdef -> list ptok -> Prop :=
| wad_prim p l e : writtenA_d (DPrim p) [(l, TkKw (KwPrim p), e)]
| wad_seq t pts l1 e1 l2 e2 l3 e3 : writtenA t pts -> writtenA_d (DSeq t) ((l1, TkKw KwSequence, e1) :: (l2, TkLt, e2) :: pts ++ [(l3, TkGt, e3)])
| wad_dict k v pk pv l1 e1 l2 e2 l3 e3 l4 e4 : writtenA k pk -> writtenA v pv ->
    writtenA_d (DDict k v) ((l1, TkKw KwDictionary, e1) :: (l2, TkLt, e2) :: pk ++ (l3, TkComma, e3) :: pv ++ [(l4, TkGt, e4)])
| wad_res k v pk pv l1 e1 l2 e2 l3 e3 l4 e4 : writtenA k pk -> writtenA v pv ->
    writtenA_d (DRes k v) ((l1, TkKw KwResult, e1) :: (l2, TkLt, e2) :: pk ++ (l3, TkComma, e3) :: pv ++ [(l4, TkGt, e4)])
| wad_rel first more pts l e : spells_tail more pts ->
    writtenA_d (DNamed (mksident (joined false first more) (mksspan l (last_end pts e)))) ((l, TkIdent first, e) :: pts)
| wad_glob first more pts l0 e0 l e : spells_tail more pts ->
    writtenA_d (DNamed (mksident (joined true first more) (mksspan l0 (last_end pts e)))) ((l0, TkDColon, e0) :: (l, TkIdent first, e) :: pts).

Lemma writtenA_d_head d pts : writtenA_d d pts -> exists p r, pts = p :: r /\ token_eqb (snd (fst p)) TkLBracket = false.
Proof. destruct 1; eexists; eexists; split; reflexivity. Qed.
Lemma not_lbracket_head p r x : token_eqb (snd (fst p)) TkLBracket = false -> ~ next_is TkLBracket ((p :: r) ++ x).
Proof. destruct p as [[l t] e]. cbn. intros H X. congruence. Qed.
Lemma first_start_app a b d : a <> [] -> first_start (a ++ b) d = first_start a d.
Proof. destruct a; [congruence|reflexivity]. Qed.
Lemma written_lattrs_head attrs pts rest : written_lattrs attrs pts -> pts <> [] -> exists l e r, pts ++ rest = (l, TkLBracket, e) :: r.
Proof. destruct 1; [congruence|]. intros _. eexists; eexists; eexists. reflexivity. Qed.

(* what p_typeref reads between the attributes and the question mark *)
Definition p_stdef (f : nat) (s1 : pstate) : pres stdef :=
  match ps_toks s1 with
  | (_, TkKw (KwPrim p), _) :: _ => POk_ (DPrim p) (advance s1)
  | (_, TkKw KwSequence, _) :: _ =>
    plet _, a <- expect TkLt (advance s1) ;; plet e, b <- p_typeref f a ;; plet _, c <- expect TkGt b ;; POk_ (DSeq e) c
  | (_, TkKw KwDictionary, _) :: _ =>
    plet _, a <- expect TkLt (advance s1) ;; plet k, b <- p_typeref f a ;; plet _, c <- expect TkComma b ;; plet v, d <- p_typeref f c ;;
    plet _, e <- expect TkGt d ;; POk_ (DDict k v) e
  | (_, TkKw KwResult, _) :: _ =>
    plet _, a <- expect TkLt (advance s1) ;; plet k, b <- p_typeref f a ;; plet _, c <- expect TkComma b ;; plet v, d <- p_typeref f c ;;
    plet _, e <- expect TkGt d ;; POk_ (DRes k v) e
  | (_, TkIdent _, _) :: _ => plet i, a <- p_relative_identifier f s1 ;; POk_ (DNamed i) a
  | (_, TkDColon, _) :: _ => plet i, a <- p_global_identifier f s1 ;; POk_ (DNamed i) a
  | _ => fail_here s1
  end.
Lemma p_typeref_S f s : p_typeref (S f) s =
  plet attrs, s1 <- p_local_attributes f s ;; plet d, s2 <- p_stdef f s1 ;;
  let '(o, s3) := opt_tok TkQuestion s2 in POk_ (STRef (mksspan (next_start s) (ps_last s3)) o attrs d) s3.
Proof. reflexivity. Qed.

Theorem typerefA_written t pts : writtenA t pts -> forall fuel rest le last dg, length pts < fuel -> ~ next_is TkQuestion rest -> ~ next_is TkDColon rest ->
  p_typeref fuel (mkps (pts ++ rest) le last dg) = POk_ t (mkps rest le (last_end pts last) dg).
Proof.
  intros w fuel. revert t pts w. induction fuel as [|f IH]; [intros; lia|].
  assert (D : forall d pts, writtenA_d d pts -> forall rest, length pts <= f -> ~ next_is TkDColon rest -> reads (p_stdef f) d pts rest).
  { intros d pts wd rest Hf Hc le last dg. destruct wd; len Hf; flat; unfold p_stdef; step.
    - reflexivity.
    - part IH. step. extents.
    - part IH. step. part IH. step. extents.
    - part IH. step. part IH. step. extents.
    - part relative_identifier_written. extents.
    - unfold p_global_identifier. step. part scoped_tail_written. unfold joined. rewrite <- app_assoc. extents. }
  intros t pts [attrs apts d pts' wl wd|attrs apts d pts' l e wl wd] rest le last dg Hf Hq Hc.
  (* a type without and with `?`: in both the attributes are read first, and they end where the type proper begins (H0) *)
  all: specialize (D _ _ wd); destruct (writtenA_d_head _ _ wd) as ([[l0 k0] e0] & r0 & -> & H0).
  all: len Hf; flat; rewrite p_typeref_S.
  all: part (lattrs_written _ _ wl); [|apply (not_lbracket_head _ _ _ H0)]; cbn [pbind].
  - part (D rest). cbn [pbind]. rewrite (opt_tok_miss _ _ Hq), (next_start_mid r0 L0). extents.
  - part (D ((l, TkQuestion, e) :: rest)). step. rewrite (next_start_mid r0 L0). extents.
Qed.
Lemma written_writtenA t pts (w : written t pts) : writtenA t pts
with written_writtenA_d d pts (w : written_d d pts) : writtenA_d d pts.
Proof.
  - destruct w as [d pts w|d pts l e w]; [exact (wa_plain [] [] _ _ wla_nil (written_writtenA_d _ _ w))|exact (wa_opt [] [] _ _ l e wla_nil (written_writtenA_d _ _ w))].
  - destruct w; constructor; try apply written_writtenA; assumption.
Qed.
(* C02, C09: a written type expression is read back, with the locations of its own tokens at every level *)
Theorem typeref_written t pts : written t pts -> forall fuel rest le last dg, length pts < fuel -> ~ next_is TkQuestion rest -> ~ next_is TkDColon rest ->
  p_typeref fuel (mkps (pts ++ rest) le last dg) = POk_ t (mkps rest le (last_end pts last) dg).
Proof. intros w. exact (typerefA_written _ _ (written_writtenA _ _ w)). Qed.
(* a type reference begins with "[", "::", an identifier or the keyword of a type: with none of what the productions around
   it look for *)
Definition type_ahead (s : pstate) : Prop := is_kw s KwStream = false /\ is_kw s KwTag = false /\ is_tok s TkLParen = false /\ is_tok s TkLBrace = false.
Lemma writtenA_head t pts : writtenA t pts -> pts <> [] /\ forall x le last dg, type_ahead (mkps (pts ++ x) le last dg).
Proof.
  assert (D : forall d p, writtenA_d d p -> p <> [] /\ forall x le last dg, type_ahead (mkps (p ++ x) le last dg)) by (destruct 1; (split; [discriminate|repeat split])).
  destruct 1 as [? apts d pts wl wd|? apts d pts l e wl wd]; (destruct wl; [cbn [app]|split; [discriminate|repeat split]]).
  - exact (D _ _ wd).
  - destruct (D _ _ wd) as [Hne Ht]. split; [destruct pts; [congruence|discriminate]|]. intros x. rewrite <- app_assoc. apply Ht.
Qed.

Inductive written_prelude : doclines * list attr -> list ptok -> Prop :=
| wp_nil : written_prelude ([], []) []
| wp_doc v l e d a pts : written_prelude (d, a) pts -> written_prelude ((v, mksspan l e) :: d, a) ((l, TkDoc v, e) :: pts)
| wp_attr at_ apts d a pts l e l2 e2 : written_attr at_ apts -> written_prelude (d, a) pts ->
    written_prelude (d, at_ :: a) ((l, TkLBracket, e) :: apts ++ (l2, TkRBracket, e2) :: pts).
Definition starts_prelude (ts : list ptok) : Prop := match ts with (_, TkDoc _, _) :: _ | (_, TkLBracket, _) :: _ => True | _ => False end.
Lemma prelude_written pre pts : written_prelude pre pts -> forall fuel rest, length pts < fuel -> ~ starts_prelude rest ->
  reads (p_prelude fuel) pre pts rest.
Proof.
  induction 1 as [|v l e d a pts _ IH|at_ apts d a pts l e l2 e2 Ha _ IH]; intros [|f] rest Hf Hr le last dg; try (exfalso; lia); cbn [app p_prelude ps_toks].
  - destruct rest as [|[[l t] e] rest]; [reflexivity|]. destruct t; try reflexivity; case Hr; exact I.
  - len Hf. step. part IH. extents.
  - len Hf. flat. part (local_attribute_written _ _ Ha). step. part IH. extents.
Qed.

Lemma prelude_first pre ppts y x : written_prelude pre ppts -> decl_first y -> 0 < length (ppts ++ y) /\ decl_first ((ppts ++ y) ++ x).
Proof. intros Hp D. destruct Hp; try (split; [cbn; lia|exact I]). destruct y; [case D|split; [cbn; lia|exact D]]. Qed.

(* tag(<integer literal>) with a value in range *)
Inductive written_tag : option (Z * sspan) -> list ptok -> Prop :=
| wt_none : written_tag None []
| wt_some s z b l1 e1 l2 e2 l e l3 e3 : parse_int s = (IntOk z, b) -> (0 <= z <= 2147483647)%Z ->
    written_tag (Some (z, mksspan l e)) [(l1, TkKw KwTag, e1); (l2, TkLParen, e2); (l, TkInt s, e); (l3, TkRParen, e3)].
(* Tag? as fields, parameters and return types read it *)
Lemma opt_tag_written tag pts : written_tag tag pts -> forall rest, (forall le last dg, is_kw (mkps rest le last dg) KwTag = false) ->
  reads (fun s => if is_kw s KwTag then plet t, a <- p_tag s ;; POk_ (Some t) a else POk_ None s) tag pts rest.
Proof.
  destruct 1 as [|s z b l1 e1 l2 e2 l e l3 e3 Hp Hz]; intros rest Hk le last dg; cbn [app]; [rewrite Hk; reflexivity|].
  unfold p_tag. step. unfold p_signed_integer, p_integer. step. rewrite Hp. step.
  replace ((z <? 0) || (z >? 2147483647))%Z with false by lia. unfold wrap_u32. rewrite Z.mod_small by lia. reflexivity.
Qed.

(* a field (Prelude Tag? Identifier ":" TypeRef) or a parameter (Prelude Tag? Identifier ":" stream? TypeRef, no doc comment) *)
Inductive written_member (is_param : bool) : smember -> list ptok -> Prop :=
| wm doc attrs ppts tag tpts name ln en lc ec stream spts t ypts :
    written_prelude (doc, attrs) ppts -> (is_param = true -> doc = []) ->
    written_tag tag tpts ->
    (spts = [] /\ stream = false \/ is_param = true /\ stream = true /\ exists l e, spts = [(l, TkKw KwStream, e)]) ->
    writtenA t ypts ->
    written_member is_param
      (mksmember doc attrs tag (mksident name (mksspan ln en)) stream t (mksspan (first_start (tpts ++ [(ln, TkIdent name, en)]) L0) (last_end ypts L0)))
      (ppts ++ tpts ++ (ln, TkIdent name, en) :: (lc, TkColon, ec) :: spts ++ ypts).
(* stream?: only parameters look for it *)
Lemma member_stream ip stream spts t ypts : spts = [] /\ stream = false \/ ip = true /\ stream = true /\ (exists l e, spts = [(l, TkKw KwStream, e)]) ->
  writtenA t ypts -> forall rest le last dg,
  (if ip then opt_kw KwStream (mkps (spts ++ ypts ++ rest) le last dg) else (false, mkps (spts ++ ypts ++ rest) le last dg))
  = (stream, mkps (ypts ++ rest) le (last_end spts last) dg).
Proof.
  intros [[-> ->]|(-> & -> & l & e & ->)] Ht rest le last dg; [|reflexivity]. destruct ip; [|reflexivity].
  unfold opt_kw. cbn [app]. rewrite (proj1 (proj2 (writtenA_head _ _ Ht) _ _ _ _)). reflexivity.
Qed.
Lemma member_written ip m pts : written_member ip m pts -> forall fuel rest le last dg, length pts < fuel ->
  ~ next_is TkQuestion rest -> ~ next_is TkDColon rest ->
  p_member ip fuel (mkps (pts ++ rest) le last dg) = POk_ m (mkps rest le (last_end pts last) dg).
Proof.
  destruct 1 as [doc attrs ppts tag tpts name ln en lc ec stream spts t ypts Hpre Hdoc Htag Hstream Hty]. intros fuel rest le last dg Hf Hq Hc.
  len Hf. flat. unfold p_member.
  part (prelude_written _ _ Hpre); [|destruct Htag; not_next]. cbn [pbind].
  part (opt_tag_written _ _ Htag). step.
  rewrite (member_stream _ _ _ _ _ Hstream Hty). part (typerefA_written _ _ Hty). cbn [pbind fst snd].
  rewrite (next_start_mid [] L0). destruct ypts; [case (proj1 (writtenA_head _ _ Hty)); reflexivity|]. nest. destruct ip; rewrite ?(Hdoc eq_refl); reflexivity.
Qed.

(* UndelimitedList: after every member a comma may or may not be written *)
Inductive written_members (ip : bool) : list smember -> list ptok -> Prop :=
| wms_nil : written_members ip [] []
| wms_cons m mpts c ms pts : written_member ip m mpts -> (c = [] \/ exists l e, c = [(l, TkComma, e)]) -> written_members ip ms pts ->
    written_members ip (m :: ms) (mpts ++ c ++ pts).
Definition safe_follow (ts : list ptok) : Prop := ~ next_is TkQuestion ts /\ ~ next_is TkDColon ts.
Lemma decl_first_safe ts : decl_first ts -> safe_follow ts.
Proof. intros D. split; apply (decl_first_next _ _ D); discriminate. Qed.
Lemma written_member_head ip m pts : written_member ip m pts -> forall x,
  0 < length pts /\ decl_first (pts ++ x) /\ forall le last dg, starts_member (mkps (pts ++ x) le last dg) = true.
Proof.
  destruct 1 as [doc attrs ppts tag tpts name ln en lc ec stream spts t ypts Hpre _ Htag _ _]. intros x.
  destruct Hpre; [destruct Htag|..]; (split; [cbn; lia|split; [exact I|reflexivity]]).
Qed.
Lemma members_written ip ms pts : written_members ip ms pts -> forall fuel rest le last dg, S (length pts) < fuel ->
  starts_member (mkps rest le last dg) = false -> safe_follow rest -> ~ next_is TkComma rest ->
  p_members ip fuel (mkps (pts ++ rest) le last dg) = POk_ ms (mkps rest le (last_end pts last) dg).
Proof.
  induction 1 as [|m mpts c ms pts Hm Hc Hms IH]; intros [|f] rest le last dg Hf Hs Hr Hcm; [lia| |lia|]; cbn [p_members].
  - cbn [app]. rewrite Hs. reflexivity.
  - destruct (written_member_head _ _ _ Hm (c ++ pts ++ rest)) as (Hm1 & _ & St). len Hf. rewrite <- !app_assoc, St.
    destruct Hc as [->|(l & e & ->)]; cbn [app].
    + (* no comma: the next member, or what follows the list *)
      assert (N : safe_follow (pts ++ rest) /\ ~ next_is TkComma (pts ++ rest)).
      { destruct Hms as [|m2 mpts2 c2 ms2 pts2 Hm2 _ _]; [tauto|]. rewrite <- !app_assoc.
        destruct (written_member_head _ _ _ Hm2 (c2 ++ pts2 ++ rest)) as (_ & D & _). split; [exact (decl_first_safe _ D)|apply (decl_first_next _ _ D); discriminate]. }
      part (member_written _ _ _ Hm); [|apply N..]. cbn [pbind]. rewrite (opt_tok_miss _ _ (proj2 N)). part IH. extents.
    + part (member_written _ _ _ Hm). step. part IH. extents.
Qed.

(* Prelude compact? struct Identifier { fields } *)
Inductive written_struct : defn -> list ptok -> Prop :=
| wstruct doc attrs ppts compact cpts ls es name ln en lb eb fields mpts lr er :
    written_prelude (doc, attrs) ppts ->
    (compact = false /\ cpts = [] \/ compact = true /\ exists l e, cpts = [(l, TkKw KwCompact, e)]) ->
    written_members false fields mpts ->
    written_struct (DStruct doc attrs compact (mksident name (mksspan ln en)) fields (mksspan (first_start (cpts ++ [(ls, TkKw KwStruct, es)]) L0) en))
      (ppts ++ cpts ++ (ls, TkKw KwStruct, es) :: (ln, TkIdent name, en) :: (lb, TkLBrace, eb) :: mpts ++ [(lr, TkRBrace, er)]).
Lemma struct_written d pts : written_struct d pts -> forall fuel rest, length pts < fuel ->
  reads (fun s => plet pre, s1 <- p_prelude fuel s ;; p_definition_after_prelude fuel pre s1) d pts rest.
Proof.
  destruct 1 as [doc attrs ppts compact cpts ls es name ln en lb eb fields mpts lr er Hpre Hc Hm]. intros fuel rest Hf le last dg. len Hf. flat.
  part (prelude_written _ _ Hpre); [|destruct Hc as [[_ ->]|(_ & l & e & ->)]; not_next]. cbn [pbind]. unfold p_definition_after_prelude.
  rewrite (opt_kw_written _ _ _ Hc), (next_start_mid [] L0) by reflexivity. step. part (members_written _ _ _ Hm). step. extents.
Qed.

Inductive written_structs : list defn -> list ptok -> Prop :=
| wss_nil : written_structs [] []
| wss_cons d dpts ds pts : written_struct d dpts -> written_structs ds pts -> written_structs (d :: ds) (dpts ++ pts).
(* a whole file: module declaration with its attributes, then struct definitions, then the end of the input *)
Inductive written_file : file -> list ptok -> Prop :=
| wfile mattrs ppts lm em first more mpts ln en ds dpts :
    written_prelude ([], mattrs) ppts -> spells_tail more mpts -> written_structs ds dpts ->
    written_file (mkfile [] (Some (mkmodul [] mattrs (mksident (joined false first more) (mksspan ln (last_end mpts en))) (mksspan lm (last_end mpts en)))) ds)
      (ppts ++ (lm, TkKw KwModule, em) :: (ln, TkIdent first, en) :: mpts ++ dpts).

(* non-vacuity: the tokens of  module M  struct S { a: int32 }  (at some locations) spell a file *)
Definition ex_loc (r c : nat) := mkloc r c.
Definition ex_tokens : list ptok :=
  [(ex_loc 1 1, TkKw KwModule, ex_loc 1 7); (ex_loc 1 8, TkIdent [77%N], ex_loc 1 9);
   (ex_loc 2 1, TkKw KwStruct, ex_loc 2 7); (ex_loc 2 8, TkIdent [83%N], ex_loc 2 9); (ex_loc 2 10, TkLBrace, ex_loc 2 11);
   (ex_loc 2 12, TkIdent [97%N], ex_loc 2 13); (ex_loc 2 13, TkColon, ex_loc 2 14); (ex_loc 2 15, TkKw (KwPrim PInt32), ex_loc 2 20);
   (ex_loc 2 21, TkRBrace, ex_loc 2 22)].
Example ex_written : exists f, written_file f ex_tokens.
Proof.
  eexists.
  refine (wfile [] [] _ _ _ [] [] _ _ _ _ wp_nil st_nil (wss_cons _ _ [] [] (wstruct [] [] [] false [] _ _ _ _ _ _ _ _ _ _ _ wp_nil (or_introl (conj eq_refl eq_refl))
            (wms_cons false _ _ [] [] [] (wm false [] [] [] None [] _ _ _ _ _ false [] _ _ wp_nil (fun _ => eq_refl) wt_none (or_introl (conj eq_refl eq_refl))
               (wa_plain [] [] _ _ wla_nil (wad_prim PInt32 _ _))) (or_introl eq_refl) (wms_nil false))) wss_nil)).
Qed.
