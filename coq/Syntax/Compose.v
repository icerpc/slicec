(* The two halves together (C02, C09): a text that is a layout of a token sequence -- blanks, line breaks, comments wherever they
   may be written -- is lexed to those tokens (LexerProofs.layout_independent) at the locations the text gives them, and if these
   tokens spell a file (ParserProofs3.written_file_all: the relation also fixes every location to the extent of its own tokens),
   parsing the text returns exactly that file and no diagnostic. *)
From Coq Require Import List NArith Lia.
From SliceV Require Import Syntax.Tokens Syntax.Lexer Syntax.LexerProofs Syntax.Parser Syntax.ParserProofs Syntax.ParserProofs3 Syntax.Relocate.
Import ListNotations.
Local Open Scope nat_scope.

Definition lexed (text : list N) : list ptok := fst (fst (lex_block (S (length text)) false (mkloc 1 1) text)).
Theorem text_read_back ts text a' : rendered false ts text a' ->
  map (fun p : ptok => snd (fst p)) (lexed text) = ts /\
  forall f, written_file_all f (lexed text) -> parse_text text = POk_ f (mkps [] None (last_end (lexed text) (mkloc 1 1)) []).
Proof.
  intros Hr. pose proof (layout_independent false ts text a' Hr (S (length text)) (mkloc 1 1) ltac:(lia)) as L.
  unfold lexed. destruct (lex_block (S (length text)) false (mkloc 1 1) text) as [[pts er] a] eqn:E.
  unfold kinds_of in L. cbn [fst snd] in L. inversion L as [[Hk He Ha]]. destruct er as [e|]; [discriminate He|]. cbn [fst].
  split; [reflexivity|]. intros f Hw.
  unfold parse_text, parse_blocks. cbn [lex_blocks]. rewrite E. rewrite app_nil_r.
  exact (file_written_all f pts Hw (mkloc 1 1)).
Qed.
(* two layouts of the same tokens are lexed to tokens of the same kinds *)
Corollary same_kinds_two_layouts ts t1 t2 a1 a2 : rendered false ts t1 a1 -> rendered false ts t2 a2 ->
  map (fun p : ptok => snd (fst p)) (lexed t1) = map (fun p : ptok => snd (fst p)) (lexed t2).
Proof. intros H1 H2. rewrite (proj1 (text_read_back _ _ _ H1)), (proj1 (text_read_back _ _ _ H2)). reflexivity. Qed.

(* two texts whose tokens (and first lexical error, if any) are of the same kinds are parsed to the same file, the same
   diagnostics in the same order, the same error -- locations aside.  No hypothesis on the texts: this covers malformed input *)
Theorem parse_text_sim t1 t2 :
  fst (kinds_of (lex_block (S (length t1)) false (mkloc 1 1) t1)) = fst (kinds_of (lex_block (S (length t2)) false (mkloc 1 1) t2)) ->
  rsim er_file (parse_text t1) (parse_text t2).
Proof.
  intros H. unfold parse_text, parse_blocks. cbn [lex_blocks].
  destruct (lex_block (S (length t1)) false (mkloc 1 1) t1) as [[ts1 er1] a1], (lex_block (S (length t2)) false (mkloc 1 1) t2) as [[ts2 er2] a2].
  unfold kinds_of in H. cbn [fst snd] in H. injection H as Hk He.
  assert (Hl : length ts1 = length ts2) by (apply (f_equal (@length token)) in Hk; rewrite !map_length in Hk; exact Hk).
  destruct er1 as [e1|], er2 as [e2|]; try discriminate He.
  - rewrite Hl. apply p_file_sim. repeat split; [exact Hk|cbn [ps_lexerr option_map] in *; exact He].
  - rewrite !app_nil_r, Hl. apply p_file_sim. repeat split; exact Hk.
Qed.
(* C02: all layouts of a token sequence are parsed to the same syntax tree and the same diagnostics; only locations differ *)
Theorem parse_independent_of_layout ts t1 t2 a1 a2 : rendered false ts t1 a1 -> rendered false ts t2 a2 ->
  rsim er_file (parse_text t1) (parse_text t2).
Proof.
  intros H1 H2. apply parse_text_sim.
  rewrite (layout_independent _ _ _ _ H1 (S (length t1)) (mkloc 1 1) ltac:(lia)), (layout_independent _ _ _ _ H2 (S (length t2)) (mkloc 1 1) ltac:(lia)). reflexivity.
Qed.
(* C02: if one layout's tokens spell a file, every layout of these tokens is parsed to a file that says the same (equal once
   locations are erased), completely and without a diagnostic: a file's meaning cannot depend on white space or comments.  (What
   `written_file_all` requires of locations is satisfied by whatever locations the lexer assigns: the relation constrains only
   the locations the file records.) *)
Corollary any_layout_read_back ts t1 t2 a1 a2 f : rendered false ts t1 a1 -> rendered false ts t2 a2 -> written_file_all f (lexed t1) ->
  exists f' s', parse_text t2 = POk_ f' s' /\ er_file f' = er_file f /\ ps_toks s' = [] /\ ps_diags s' = [].
Proof.
  intros H1 H2 Hw. pose proof (proj2 (text_read_back _ _ _ H1) f Hw) as P1. pose proof (parse_independent_of_layout _ _ _ _ _ H1 H2) as S.
  rewrite P1 in S. destruct (parse_text t2) as [f' s'|e]; [|contradiction]. destruct S as [Ef (Kt & _ & Kd)]. cbn [ps_toks ps_diags map] in Kt, Kd.
  exists f', s'. repeat split; [symmetry; exact Ef| |].
  - destruct (ps_toks s'); [reflexivity|discriminate Kt].
  - destruct (ps_diags s'); [reflexivity|discriminate Kd].
Qed.
