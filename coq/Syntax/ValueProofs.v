(* Literal values (C02): string arguments and integer literals read back as what was written. *)
From Coq Require Import List Bool NArith ZArith Lia.
From SliceV Require Import Cli.PluginSpec Doc.Comment Syntax.Tokens Syntax.Lexer Syntax.Parser.
Import ListNotations.
Local Open Scope N_scope.

(* writing a string argument: a backslash in front of every backslash and double quote (and, optionally, of any other character) *)
Definition must_escape (c : N) : bool := (c =? 92) || (c =? 34).
Fixpoint escape (choice : list bool) (s : list N) : list N :=
  match s with
  | [] => []
  | c :: r => let '(b, ch) := match choice with b :: ch => (b, ch) | [] => (false, []) end in
              if must_escape c || b then 92 :: c :: escape ch r else c :: escape ch r
  end.
Lemma unescape_pair c t : unescape false (92 :: c :: t) = c :: unescape false t.
Proof. cbn [unescape]. change (92 =? 92) with true. cbn [andb negb]. rewrite andb_false_r. reflexivity. Qed.
Lemma unescape_plain c t : (c =? 92) = false -> unescape false (c :: t) = c :: unescape false t.
Proof. intros H. cbn [unescape]. rewrite H. reflexivity. Qed.
Theorem unescape_escape choice s : unescape false (escape choice s) = s.
Proof.
  revert choice. induction s as [|c r IH]; intros choice; [reflexivity|]. cbn [escape].
  destruct (match choice with [] => _ | _ :: _ => _ end) as [b ch]. destruct (must_escape c || b) eqn:E.
  - rewrite unescape_pair, IH. reflexivity.
  - apply orb_false_iff in E as [E _]. apply orb_false_iff in E as [E1 _]. rewrite unescape_plain, IH by exact E1. reflexivity.
Qed.
Lemma scan_string_escape choice s : forallb (fun c => negb (c =? 10)) s = true -> forall acc rest,
  scan_string false (escape choice s ++ 34 :: rest) acc = inl (rev acc ++ escape choice s, rest).
Proof.
  revert choice. induction s as [|c r IH]; intros choice Hs acc rest.
  - cbn [escape app scan_string]. cbn. rewrite app_nil_r. reflexivity.
  - cbn [forallb] in Hs. apply andb_true_iff in Hs as [Hc Hr]. apply negb_true_iff in Hc.
    cbn [escape]. destruct (match choice with [] => _ | _ :: _ => _ end) as [b ch]. destruct (must_escape c || b) eqn:E; cbn [app scan_string].
    + cbn. rewrite Hc. rewrite IH by exact Hr. cbn [rev]. rewrite <- !app_assoc. reflexivity.
    + apply orb_false_iff in E as [E _]. apply orb_false_iff in E as [E1 E2]. rewrite Hc, E2, E1. rewrite IH by exact Hr. cbn [rev]. rewrite <- app_assoc. reflexivity.
Qed.
Theorem string_argument_roundtrip choice s rest : forallb (fun c => negb (c =? 10)) s = true ->
  exists raw, scan_string false (escape choice s ++ 34 :: rest) [] = inl (raw, rest) /\ unescape false raw = s.
Proof. intros H. exists (escape choice s). split; [apply (scan_string_escape choice s H [] rest)|apply unescape_escape]. Qed.

Local Open Scope Z_scope.
(* a literal is a list of digit values written most significant first, in upper or lower case, with any number of underscores *)
Definition digit_char (upper : bool) (d : Z) : N :=
  if d <? 10 then Z.to_N (d + 48) else if upper then Z.to_N (d + 55) else Z.to_N (d + 87).
Definition value_of (base : Z) (ds : list Z) : Z := fold_left (fun acc d => acc * base + d) ds 0.
Lemma digit_val_char u d : 0 <= d < 16 -> digit_val (digit_char u d) = Some d.
Proof.
  intros H. assert (C : d = 0 \/ d = 1 \/ d = 2 \/ d = 3 \/ d = 4 \/ d = 5 \/ d = 6 \/ d = 7 \/ d = 8 \/ d = 9 \/ d = 10 \/ d = 11 \/ d = 12 \/ d = 13 \/ d = 14 \/ d = 15) by lia.
  destruct u; repeat (destruct C as [->|C]; [reflexivity|]); subst; reflexivity.
Qed.
Lemma fold_ge base ds : 1 < base -> Forall (fun d => 0 <= d) ds -> forall acc, 0 <= acc -> acc <= fold_left (fun a d => a * base + d) ds acc.
Proof.
  intros Hb. induction 1 as [|d ds Hd _ IH]; intros acc Ha; cbn [fold_left]; [lia|].
  etransitivity; [|apply IH; nia]. nia.
Qed.
Lemma radix_fold_digits base us ds : 1 < base <= 16 -> length us = length ds -> Forall (fun d => 0 <= d < base) ds -> forall acc, 0 <= acc ->
  fold_left (fun a d => a * base + d) ds acc <= I128_MAX ->
  radix_fold base (map (fun p => digit_char (fst p) (snd p)) (combine us ds)) acc = IntOk (fold_left (fun a d => a * base + d) ds acc).
Proof.
  intros Hb. revert ds. induction us as [|u us IH]; intros [|d ds] Hl Hall acc Ha Hmax; cbn [length] in Hl; try discriminate; [reflexivity|].
  apply Forall_cons_iff in Hall as [Hd Hds]. cbn [combine map radix_fold fst snd fold_left] in *.
  rewrite digit_val_char by lia. replace (d <? base) with true by (symmetry; apply Z.ltb_lt; lia).
  assert (Hle : acc * base + d <= I128_MAX).
  { etransitivity; [|exact Hmax]. apply fold_ge; [lia| |nia]. eapply Forall_impl; [|exact Hds]. cbn. intros; lia. }
  replace (acc * base + d >? I128_MAX) with false by (symmetry; rewrite Z.gtb_ltb; apply Z.ltb_ge; exact Hle).
  apply IH; auto; try lia; nia.
Qed.
(* the match on the prefixes `0b` and `0x` is a tree over the binary digits of two characters; as two tests it can be rewritten *)
Lemma prefix_match {T} (A B : list N -> T) (E D : T) t :
  match t with 48%N :: 98%N :: r => A r | 48%N :: 120%N :: r => B r | [] => E | _ => D end =
  match t with
  | [] => E
  | c1 :: c2 :: r => if (c1 =? 48)%N && (c2 =? 98)%N then A r else if (c1 =? 48)%N && (c2 =? 120)%N then B r else D
  | _ => D
  end.
Proof.
  destruct t as [|c1 [|c2 r]]; [reflexivity| |].
  - destruct c1 as [|p]; [reflexivity|]. repeat (destruct p as [p|p|]; try reflexivity).
  - destruct c1 as [|p]; [reflexivity|]. repeat (destruct p as [p|p|]; try reflexivity).
    destruct c2 as [|p]; [reflexivity|]. repeat (destruct p as [p|p|]; try reflexivity).
Qed.

Definition prefix_of (base : Z) : list N := if base =? 2 then [48; 98]%N else if base =? 16 then [48; 120]%N else [].
Lemma decimal_char u d : 0 <= d < 10 -> (digit_char u d =? 98)%N = false /\ (digit_char u d =? 120)%N = false.
Proof. intros H. unfold digit_char. replace (d <? 10) with true by (symmetry; apply Z.ltb_lt; lia). rewrite !N.eqb_neq. lia. Qed.
(* C02: the value of a written literal is the number written, wherever underscores are put *)
Theorem integer_literal_value base us ds s : (base = 2 \/ base = 10 \/ base = 16) -> ds <> [] -> length us = length ds ->
  Forall (fun d => 0 <= d < base) ds -> value_of base ds <= I128_MAX ->
  filter (fun c => negb (c =? 95)%N) s = prefix_of base ++ map (fun p => digit_char (fst p) (snd p)) (combine us ds) ->
  parse_int s = (IntOk (value_of base ds), Z.to_N base).
Proof.
  intros Hb Hne Hl Hall Hmax Hs. unfold parse_int. rewrite prefix_match, Hs.
  pose proof (radix_fold_digits base us ds ltac:(lia) Hl Hall 0 (Z.le_refl 0) Hmax) as R. fold (value_of base ds) in R. rewrite <- R.
  destruct us as [|u us], ds as [|d ds]; try discriminate Hl; [contradiction Hne; reflexivity|].
  destruct Hb as [->|[->| ->]]; [reflexivity| |reflexivity].
  (* decimal: the second character cannot complete a prefix, since decimal digit characters are below 'b' and 'x' *)
  destruct us as [|u2 us], ds as [|d2 ds]; try discriminate Hl; [reflexivity|].
  destruct (decimal_char u2 d2 (Forall_inv (Forall_inv_tail Hall))) as [E1 E2].
  cbn [prefix_of Z.eqb Pos.eqb app combine map fst snd]. rewrite E1, E2, !andb_false_r. reflexivity.
Qed.
Lemma digit_val_nonneg c d : digit_val c = Some d -> 0 <= d.
Proof. unfold digit_val. intros H. repeat (destruct (_ && _) in H); inversion H; apply N2Z.is_nonneg. Qed.
Lemma radix_fold_range base : 1 < base -> forall s acc z, 0 <= acc <= I128_MAX -> radix_fold base s acc = IntOk z -> 0 <= z <= I128_MAX.
Proof.
  intros Hb. induction s as [|c r IH]; intros acc z Ha H; cbn [radix_fold] in H; [inversion H; subst; exact Ha|].
  destruct (digit_val c) as [d|] eqn:D; [|discriminate]. destruct (d <? base); [|discriminate].
  destruct (acc * base + d >? I128_MAX) eqn:G; [destruct (forallb _ r); discriminate|].
  apply IH in H; [exact H|]. rewrite Z.gtb_ltb in G. apply Z.ltb_ge in G. split; [|exact G]. apply digit_val_nonneg in D. nia.
Qed.
(* C02: what is read as a value lies within i128; the other outcomes, IntInvalid and IntOverflow, are what p_integer diagnoses *)
Theorem integer_literal_checked s z b : parse_int s = (IntOk z, b) -> 0 <= z <= I128_MAX.
Proof.
  unfold parse_int. rewrite prefix_match. generalize (filter (fun c => negb (c =? 95)%N) s). intros t H.
  assert (R : forall base r, 1 < base -> (match r with [] => IntOverflow | _ => radix_fold base r 0 end, Z.to_N base) = (IntOk z, b) -> 0 <= z <= I128_MAX).
  { intros base r Hb E. injection E as E _. destruct r as [|c r]; [discriminate E|]. apply (radix_fold_range base Hb (c :: r) 0 z); [split; [reflexivity|discriminate]|exact E]. }
  destruct t as [|c1 [|c2 r]]; [discriminate H|apply (R 10 [c1]); [reflexivity|exact H]|].
  destruct (_ && _) in H; [apply (R 2 r); [reflexivity|exact H]|]. destruct (_ && _) in H; [apply (R 16 r); [reflexivity|exact H]|].
  apply (R 10 (c1 :: c2 :: r)); [reflexivity|exact H].
Qed.
