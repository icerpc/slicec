(* The lexer consumes its whole input (C01): with fuel exceeding the number of characters the result no longer depends on the
   fuel, i.e. the loop of the implementation ends within one step per character.  The token kinds it returns depend neither
   on where the text starts nor on how the tokens are laid out (C02). *)
From Coq Require Import List Bool NArith Arith Lia.
From SliceV Require Import Cli.PluginSpec Doc.Comment Doc.CommentProofs Syntax.Tokens Syntax.Lexer.
Import ListNotations.
Local Open Scope nat_scope.

Lemma span_while_eq p s w rest : span_while p s = (w, rest) -> s = w ++ rest.
Proof. intros E. rewrite (proj1 (span_while_split p s)), E. reflexivity. Qed.
Lemma span_while_len p s : length (snd (span_while p s)) <= length s.
Proof. destruct (span_while p s) as [w rest] eqn:E. rewrite (span_while_eq p s w rest E), app_length. apply Nat.le_add_l. Qed.
Lemma span_while_len_strict p c r : p c = true -> length (snd (span_while p (c :: r))) <= length r.
Proof. intros H. cbn [span_while]. rewrite H. pose proof (span_while_len p r) as L. destruct (span_while p r). exact L. Qed.
Lemma scan_string_split : forall r esc acc, match scan_string esc r acc with
  | inl (content, rest) => exists c w, r = c :: w ++ rest
  | inr eaten => exists w rest, r = w ++ rest /\ eaten = rev acc ++ w end.
Proof.
  induction r as [|c r IH]; intros esc acc; cbn [scan_string].
  - exists [], []. split; [reflexivity|]. rewrite app_nil_r. reflexivity.
  - destruct (c =? 10)%N. { exists [], (c :: r). split; [reflexivity|]. rewrite app_nil_r. reflexivity. }
    assert (K : forall e, match scan_string e r (c :: acc) with
      | inl (content, rest) => exists c0 w, c :: r = c0 :: w ++ rest | inr eaten => exists w rest, c :: r = w ++ rest /\ eaten = rev acc ++ w end).
    { intros e. specialize (IH e (c :: acc)). destruct (scan_string e r (c :: acc)) as [[content rest]|eaten].
      - destruct IH as (x & w & ->). exists c, (x :: w). reflexivity.
      - destruct IH as (w & rest & -> & ->). exists (c :: w), rest. split; [reflexivity|]. cbn [rev]. rewrite <- app_assoc. reflexivity. }
    destruct esc; [apply K|]. destruct (c =? 34)%N; [|apply K]. exists c, []. reflexivity.
Qed.
Lemma scan_string_len s esc acc content rest : scan_string esc s acc = inl (content, rest) -> length rest < length s.
Proof. intros H. pose proof (scan_string_split s esc acc) as S. rewrite H in S. destruct S as (c & w & ->). cbn [length]. rewrite app_length. lia. Qed.
Lemma scan_block_split : forall r star rest, scan_block star r = Some rest -> exists c w, r = c :: w ++ rest.
Proof.
  induction r as [|c r IH]; intros star rest; cbn [scan_block]; [discriminate|].
  destruct ((c =? 47)%N && star). { intros E. injection E as ->. exists c, []. reflexivity. }
  intros E. apply IH in E as (x & w & ->). exists c, (x :: w). reflexivity.
Qed.
Lemma scan_block_len s star rest : scan_block star s = Some rest -> length rest < length s.
Proof. intros H. apply scan_block_split in H as (c & w & ->). cbn [length]. rewrite app_length. lia. Qed.
Lemma consumed_app w rest : consumed (w ++ rest) rest = w.
Proof. unfold consumed. rewrite app_length, Nat.add_sub, firstn_app, firstn_all, Nat.sub_diag. apply app_nil_r. Qed.
Lemma adv_all_app l a b : adv_all l (a ++ b) = adv_all (adv_all l a) b.
Proof. apply fold_left_app. Qed.

Lemma consumed_nothing : True. Proof. exact I. Qed.

(* What one step does with its input, wherever that stands: it goes on with `rest` in mode `a` after the characters w0 ++ w, of which
   w are the token t, if there is one; or it halts, with a last token t made of the whole input, or an error at a prefix w of it. *)
Inductive step :=
| Go (w0 w : list N) (t : option token) (a : bool) (rest : list N)
| Halt (t : option token) (er : option (lexerr * list N)) (a : bool).
Definition emit (l : loc) (t : option token) (e : loc) (res : list ptok * option plexerr * bool) : list ptok * option plexerr * bool :=
  match t with Some t => let '(ts, er, a) := res in ((l, t, e) :: ts, er, a) | None => res end.
Definition run (rec : bool -> loc -> list N -> list ptok * option plexerr * bool) (cur : loc) (s : list N) (st : step) : list ptok * option plexerr * bool :=
  match st with
  | Go w0 w t a rest => let l := adv_all cur w0 in let e := adv_all l w in emit l t e (rec a e rest)
  | Halt t er a => (match t with Some t => [(cur, t, adv_all cur s)] | None => [] end,
                    option_map (fun xw : lexerr * list N => (cur, fst xw, adv_all cur (snd xw))) er, a)
  end.

Definition double_step (c : N) (r : list N) (d : N) (t2 t1 : token) (a : bool) : step :=
  match r with
  | c2 :: r2 => if (c2 =? d)%N then Go [] [c; c2] (Some t2) a r2 else Go [] [c] (Some t1) a r
  | [] => Halt (Some t1) None a
  end.
(* after `//`: the number of slashes that open the comment, whether they are exactly three, and the text *)
Definition comment_start (r2 : list N) : nat * bool * list N :=
  match r2 with
  | c3 :: r3 => if (c3 =? 47)%N then (match r3 with c4 :: _ => if (c4 =? 47)%N then (3, false, r3) else (3, true, r3) | [] => (3, true, r3) end)
                else (2, false, r2)
  | [] => (2, false, r2)
  end.
Definition lex_other (attr : bool) (c : N) (r : list N) : step :=
  let word (mk : list N -> token) := let '(w, rest) := span_while is_alnum_ (c :: r) in Go [] w (Some (mk w)) attr rest in
  if is_letter c then word (word_token attr) else if is_digit c then word TkInt
  else if is_ws c then Go [] [c] None attr r
  else Halt None (Some (LxUnknownSymbol [c], [c])) attr.
(* `lex_step` test by test, with the step in place of the result *)
Definition lex_step1 (attr : bool) (s : list N) : step :=
  match s with
  | [] => Halt None None attr
  | c :: r =>
    let simple (t : token) := Go [] [c] (Some t) attr r in
    let double := double_step c r in
    let unknown := Halt None (Some (LxUnknownSymbol [c], [c])) attr in
    (if c =? 40 then simple TkLParen else if c =? 41 then simple TkRParen
     else if c =? 91 then double 91 TkDLBracket TkLBracket true
     else if c =? 93 then double 93 TkDRBracket TkRBracket false
     else if c =? 123 then simple TkLBrace else if c =? 125 then simple TkRBrace
     else if c =? 60 then simple TkLt else if c =? 62 then simple TkGt
     else if c =? 44 then simple TkComma
     else if c =? 58 then double 58 TkDColon TkColon attr
     else if c =? 61 then simple TkEq else if c =? 63 then simple TkQuestion
     else if c =? 45 then double 62 TkArrow TkMinus attr
     else if c =? 34 then
       match scan_string false r [] with
       | inl (content, rest) => Go [] (consumed s rest) (Some (TkStr content)) attr rest
       | inr eaten => Halt None (Some (LxUnterminatedString, c :: eaten)) attr
       end
     else if c =? 47 then
       match r with
       | c2 :: r2 =>
         if c2 =? 47 then
           let '(n, isdoc, after) := comment_start r2 in
           let '(text, rest) := span_while (fun x => negb (x =? 10)) after in
           Go (repeat 47 n) text (if isdoc then Some (TkDoc match rev text with 13 :: t => rev t | _ => text end) else None) attr rest
         else if c2 =? 42 then
           match scan_block false r2 with
           | Some rest => Go [] (consumed s rest) None attr rest
           | None => Halt None (Some (LxUnterminatedBlockComment, s)) attr
           end
         else unknown
       | [] => unknown
       end
     else if c =? 92 then
       match r with
       | c2 :: _ => if is_letter c2 then let '(w, rest) := span_while is_alnum_ r in Go [] (c :: w) (Some (TkIdent w)) attr rest else unknown
       | [] => unknown
       end
     else lex_other attr c r)%N
  end.

Lemma slashes_end n : forall cur, adv_all cur (repeat 47%N n) = mkloc (l_row cur) (l_col cur + n).
Proof.
  induction n as [|n IH]; intros [row col]; cbn [repeat l_row l_col]; [rewrite Nat.add_0_r; reflexivity|].
  rewrite Nat.add_succ_r. apply IH.
Qed.
Lemma if_run rec cur s (b : bool) x y x' y' : x = run rec cur s x' -> y = run rec cur s y' -> (if b then x else y) = run rec cur s (if b then x' else y').
Proof. destruct b; trivial. Qed.
Lemma lex_step_run rec attr cur s : lex_step rec attr cur s = run rec cur s (lex_step1 attr s).
Proof.
  destruct s as [|c r]; [reflexivity|]. unfold lex_step, lex_step1, double_step.
  (* the thirteen punctuation characters: a simple token by computation, a double one after a look at the next character *)
  do 13 (apply if_run; [first [reflexivity|destruct r as [|c2 r2]; [reflexivity|apply if_run; reflexivity]]|]).
  apply if_run. { destruct (scan_string false r []) as [[content rest]|eaten]; reflexivity. }
  destruct (N.eqb_spec c 47) as [->|_].
  { destruct r as [|c2 r2]; [reflexivity|]. apply if_run; [|apply if_run; [destruct (scan_block false r2)|]; reflexivity].
    unfold comment_start. destruct (match r2 with [] => _ | _ :: _ => _ end) as [[n isdoc] after].
    destruct (span_while (fun x => negb (x =? 10)%N) after) as [text rest]. cbn [run]. rewrite slashes_end. destruct isdoc; [reflexivity|].
    cbn [emit]. destruct (rec attr _ rest) as [[ts er] a]. reflexivity. }
  destruct (N.eqb_spec c 92) as [->|_]. { destruct r as [|c2 r2]; [reflexivity|]. apply if_run; [destruct (span_while is_alnum_ (c2 :: r2))|]; reflexivity. }
  unfold lex_other. destruct (span_while is_alnum_ (c :: r)) as [w rest]. apply if_run; [reflexivity|]. apply if_run; [reflexivity|]. apply if_run; reflexivity.
Qed.

(* the characters a step takes are a prefix of its input, and a token starts where the step does, or after a slash (a doc comment) *)
Definition fits (s : list N) (st : step) : Prop :=
  match st with
  | Go w0 w _ _ rest => s = w0 ++ w ++ rest /\ w0 ++ w <> [] /\ (w0 = [] \/ exists x, w0 = x ++ [47%N])
  | Halt _ er _ => match er with Some (_, w) => exists rest, s = w ++ rest | None => True end
  end.
Lemma fits_go s w t a rest : s = w ++ rest -> w <> [] -> fits s (Go [] w t a rest).
Proof. intros E Hw. split; [exact E|]. split; [exact Hw|left; reflexivity]. Qed.
Lemma if_fits s (b : bool) x y : fits s x -> fits s y -> fits s (if b then x else y).
Proof. destruct b; trivial. Qed.

Lemma alnum_of_class c : is_letter c || is_digit c = true -> is_alnum_ c = true.
Proof. intros H. unfold is_alnum_, is_digit in *. rewrite H. reflexivity. Qed.
Lemma comment_start_split r : let '(n, _, after) := comment_start r in 47%N :: 47%N :: r = repeat 47%N n ++ after /\ exists x, repeat 47%N n = x ++ [47%N].
Proof.
  destruct r as [|c3 r3]; cbn [comment_start]; [split; [reflexivity|exists [47%N]; reflexivity]|].
  destruct (N.eqb_spec c3 47) as [->|_]; [|split; [reflexivity|exists [47%N]; reflexivity]].
  destruct r3 as [|c4 r4]; [|destruct (c4 =? 47)%N]; (split; [reflexivity|exists [47%N; 47%N]; reflexivity]).
Qed.
Lemma double_fits c r d t2 t1 a : fits (c :: r) (double_step c r d t2 t1 a).
Proof. destruct r as [|c2 r2]; [exact I|]. apply if_fits; apply fits_go; (reflexivity || discriminate). Qed.
Lemma lex_step1_fits attr s : fits s (lex_step1 attr s).
Proof.
  destruct s as [|c r]; [exact I|]. unfold lex_step1.
  assert (T : forall t, fits (c :: r) (Go [] [c] t attr r)) by (intros t; apply fits_go; [reflexivity|discriminate]).
  assert (U : fits (c :: r) (Halt None (Some (LxUnknownSymbol [c], [c])) attr)) by (exists r; reflexivity).
  do 13 (apply if_fits; [first [apply T|apply double_fits]|]).
  apply if_fits.
  { pose proof (scan_string_split r false []) as S. destruct (scan_string false r []) as [[content rest]|eaten].
    - destruct S as (x & w & ->). change (c :: x :: w ++ rest) with ((c :: x :: w) ++ rest). rewrite consumed_app. apply fits_go; [reflexivity|discriminate].
    - destruct S as (w & rest & -> & ->). exists rest. reflexivity. }
  destruct (N.eqb_spec c 47) as [->|_].
  { destruct r as [|c2 r2]; [exact U|]. destruct (N.eqb_spec c2 47) as [->|_].
    - pose proof (comment_start_split r2) as C. destruct (comment_start r2) as [[n isdoc] after]. destruct C as [E X].
      destruct (span_while (fun x => negb (x =? 10)%N) after) as [text rest] eqn:Sp. apply span_while_eq in Sp.
      rewrite E, Sp. split; [reflexivity|]. split; [destruct X as [x ->]; destruct x; discriminate|right; exact X].
    - apply if_fits; [|exact U]. destruct (scan_block false r2) as [rest|] eqn:E; [|exists []; symmetry; apply app_nil_r].
      apply scan_block_split in E as (x & w & ->). change (47%N :: c2 :: x :: w ++ rest) with ((47%N :: c2 :: x :: w) ++ rest). rewrite consumed_app.
      apply fits_go; [reflexivity|discriminate]. }
  apply if_fits.
  { destruct r as [|c2 r2]; [exact U|]. apply if_fits; [|exact U]. destruct (span_while is_alnum_ (c2 :: r2)) as [w rest] eqn:Sp.
    rewrite (span_while_eq _ _ _ _ Sp). apply (fits_go _ (c :: w)); [reflexivity|discriminate]. }
  unfold lex_other.
  assert (W : is_letter c || is_digit c = true -> forall mk, fits (c :: r) (let '(w, rest) := span_while is_alnum_ (c :: r) in Go [] w (Some (mk w)) attr rest)).
  { intros H mk. cbn [span_while]. rewrite (alnum_of_class c H). destruct (span_while is_alnum_ r) as [w rest] eqn:Sp.
    apply fits_go; [cbn [app]; f_equal; exact (span_while_eq _ _ _ _ Sp)|discriminate]. }
  destruct (is_letter c); [apply W; reflexivity|]. destruct (is_digit c); [apply W; reflexivity|]. apply if_fits; [apply T|exact U].
Qed.
Lemma fits_shorter s w0 w t a rest : fits s (Go w0 w t a rest) -> length rest < length s.
Proof. intros (-> & Hw & _). rewrite app_assoc, app_length. destruct (w0 ++ w); [contradiction Hw; reflexivity|cbn [length]; lia]. Qed.

Lemma lex_step_ext g1 g2 attr cur s : (forall a l x, length x < length s -> g1 a l x = g2 a l x) -> lex_step g1 attr cur s = lex_step g2 attr cur s.
Proof.
  intros R. rewrite !lex_step_run. pose proof (lex_step1_fits attr s) as F.
  destruct (lex_step1 attr s) as [w0 w t a rest|t er a]; [|reflexivity]. cbn [run]. rewrite (R _ _ _ (fits_shorter _ _ _ _ _ _ F)). reflexivity.
Qed.
Lemma lex_block_enough : forall f1 f2 attr cur s, length s < f1 -> length s < f2 -> lex_block f1 attr cur s = lex_block f2 attr cur s.
Proof.
  induction f1 as [|f1 IH]; intros [|f2] attr cur s H1 H2; try lia. cbn [lex_block]. apply lex_step_ext. intros a l x Hx. apply IH; lia.
Qed.
Corollary lex_block_fuel_independent : forall fuel attr cur s, length s < fuel -> lex_block fuel attr cur s = lex_block (S fuel) attr cur s.
Proof. intros fuel attr cur s H. apply lex_block_enough; lia. Qed.
(* C01: fuel beyond the number of characters changes nothing *)
Corollary lex_block_total fuel k attr cur s : length s < fuel -> lex_block (fuel + k) attr cur s = lex_block fuel attr cur s.
Proof. intros H. apply lex_block_enough; lia. Qed.

Definition lex_all (attr : bool) (cur : loc) (s : list N) : list ptok * option plexerr * bool := lex_block (S (length s)) attr cur s.
Lemma lex_block_all fuel attr cur s : length s < fuel -> lex_block fuel attr cur s = lex_all attr cur s.
Proof. intros H. apply lex_block_enough; [exact H|apply Nat.lt_succ_diag_r]. Qed.
Lemma lex_all_eq attr cur s : lex_all attr cur s = run lex_all cur s (lex_step1 attr s).
Proof.
  unfold lex_all at 1. cbn [lex_block]. rewrite <- lex_step_run. apply lex_step_ext. intros a l x Hx. apply lex_block_all, Hx.
Qed.

(* what the parser sees of a lexer result when locations are set aside: the token kinds, the kind of the first error, the flag *)
Definition kinds_of (r : list ptok * option plexerr * bool) : list token * option lexerr * bool :=
  (map (fun p : ptok => snd (fst p)) (fst (fst r)), option_map (fun e : plexerr => snd (fst e)) (snd (fst r)), snd r).
Definition cons_kind (t : token) (k : list token * option lexerr * bool) : list token * option lexerr * bool := (t :: fst (fst k), snd (fst k), snd k).
Lemma kinds_cons l t e ts er a : kinds_of ((l, t, e) :: ts, er, a) = (t :: fst (fst (kinds_of (ts, er, a))), snd (fst (kinds_of (ts, er, a))), a).
Proof. reflexivity. Qed.
Lemma kinds_emit l t e res : kinds_of (emit l t e res) = match t with Some t => cons_kind t (kinds_of res) | None => kinds_of res end.
Proof. destruct t; [destruct res as [[ts er] a]|]; reflexivity. Qed.

Lemma lex_step_sim g1 g2 attr k1 k2 s : (forall a l1 l2 x, length x < length s -> kinds_of (g1 a l1 x) = kinds_of (g2 a l2 x)) ->
  kinds_of (lex_step g1 attr k1 s) = kinds_of (lex_step g2 attr k2 s).
Proof.
  intros R. rewrite !lex_step_run. pose proof (lex_step1_fits attr s) as F. destruct (lex_step1 attr s) as [w0 w t a rest|t er a]; cbn [run].
  - rewrite !kinds_emit, (R a _ (adv_all (adv_all k2 w0) w) _ (fits_shorter _ _ _ _ _ _ F)). reflexivity.
  - destruct t, er; reflexivity.
Qed.
Theorem token_kinds_independent_of_start : forall fuel attr c1 c2 s, kinds_of (lex_block fuel attr c1 s) = kinds_of (lex_block fuel attr c2 s).
Proof. induction fuel as [|f IH]; intros attr c1 c2 s; [reflexivity|]. cbn [lex_block]. apply lex_step_sim. intros a l1 l2 x _. apply IH. Qed.
Definition no_nl (s : list N) : bool := forallb (fun c => negb (c =? 10)%N) s.
(* white space and ordinary comments between tokens *)
Inductive blank : list N -> Prop :=
| bl_nil : blank []
| bl_ws c b : is_ws c = true -> blank b -> blank (c :: b)
| bl_line text b : no_nl text = true -> (match text with 47%N :: _ => False | _ => True end) -> blank (10%N :: b) ->
    blank (47%N :: 47%N :: text ++ 10%N :: b)                                   (* // text, up to the end of the line *)
| bl_line4 text b : no_nl text = true -> blank (10%N :: b) -> blank (47%N :: 47%N :: 47%N :: 47%N :: text ++ 10%N :: b)   (* four or more slashes *)
| bl_block body b : (forall rest, scan_block false (body ++ 42%N :: 47%N :: rest) = Some rest) -> blank b ->
    blank (47%N :: 42%N :: body ++ 42%N :: 47%N :: b).                          (* /* body */ *)

Definition starts_with (c : N) (s : list N) : bool := match s with d :: _ => (d =? c)%N | [] => false end.
Definition starts_alnum (s : list N) : bool := match s with d :: _ => is_alnum_ d | [] => false end.
Definition word_ok (w : list N) : Prop := match w with c :: r => is_letter c = true /\ forallb is_alnum_ r = true | [] => False end.
Definition number_ok (w : list N) : Prop := match w with c :: r => is_digit c = true /\ forallb is_alnum_ r = true | [] => False end.
(* spelled attr t w attr' s: in attribute mode attr, the characters w followed by s are the token t, leaving mode attr' *)
Inductive spelled : bool -> token -> list N -> bool -> list N -> Prop :=
| sp_lparen a s : spelled a TkLParen [40%N] a s | sp_rparen a s : spelled a TkRParen [41%N] a s
| sp_lbrace a s : spelled a TkLBrace [123%N] a s | sp_rbrace a s : spelled a TkRBrace [125%N] a s
| sp_lt a s : spelled a TkLt [60%N] a s | sp_gt a s : spelled a TkGt [62%N] a s
| sp_comma a s : spelled a TkComma [44%N] a s | sp_eq a s : spelled a TkEq [61%N] a s | sp_question a s : spelled a TkQuestion [63%N] a s
| sp_lbracket a s : starts_with 91 s = false -> spelled a TkLBracket [91%N] true s
| sp_dlbracket a s : spelled a TkDLBracket [91%N; 91%N] true s
| sp_rbracket a s : starts_with 93 s = false -> spelled a TkRBracket [93%N] false s
| sp_drbracket a s : spelled a TkDRBracket [93%N; 93%N] false s
| sp_colon a s : starts_with 58 s = false -> spelled a TkColon [58%N] a s
| sp_dcolon a s : spelled a TkDColon [58%N; 58%N] a s
| sp_minus a s : starts_with 62 s = false -> spelled a TkMinus [45%N] a s
| sp_arrow a s : spelled a TkArrow [45%N; 62%N] a s
| sp_word a w s : word_ok w -> starts_alnum s = false -> spelled a (word_token a w) w a s
| sp_escaped a w s : word_ok w -> starts_alnum s = false -> spelled a (TkIdent w) (92%N :: w) a s
| sp_number a w s : number_ok w -> starts_alnum s = false -> spelled a (TkInt w) w a s
| sp_string a raw s : scan_string false (raw ++ 34%N :: s) [] = inl (raw, s) -> spelled a (TkStr raw) (34%N :: raw ++ [34%N]) a s
| sp_doc a text s : no_nl text = true -> (match text with 47%N :: _ => False | _ => True end) -> (match s with [] => True | c :: _ => c = 10%N end) ->
    spelled a (TkDoc (match rev text with 13%N :: t => rev t | _ => text end)) (47%N :: 47%N :: 47%N :: text) a s.
(* a text made of tokens with blanks (white space, line breaks, CRLF, ordinary comments) before, between and after them; the premises
   of `spelled` say where a separator is needed (between two words, before a second bracket, colon or `>`, after a doc comment) *)
Inductive rendered : bool -> list token -> list N -> bool -> Prop :=
| rd_end a b : blank b -> rendered a [] b a
| rd_tok a t w a1 ts rest a2 b : blank b -> spelled a t w a1 rest -> rendered a1 ts rest a2 -> rendered a (t :: ts) (b ++ w ++ rest) a2.

Lemma class_apart c k (x y z : step) : is_letter c || is_digit c || is_ws c = true -> is_letter k || is_digit k || is_ws k = false ->
  y = z -> (if (c =? k)%N then x else y) = z.
Proof. intros Hc Hk E. destruct (N.eqb_spec c k) as [->|_]; [rewrite Hk in Hc; discriminate Hc|exact E]. Qed.
(* letters, digits and white space are none of the sixteen characters tested before them *)
Lemma lex_step1_other attr c r : is_letter c || is_digit c || is_ws c = true -> lex_step1 attr (c :: r) = lex_other attr c r.
Proof. intros H. unfold lex_step1. do 16 (apply class_apart; [exact H|reflexivity|]). reflexivity. Qed.
Lemma range_apart lo hi lo' hi' c : (lo <=? c)%N && (c <=? hi)%N = true -> (hi <? lo')%N || (hi' <? lo)%N = true -> (lo' <=? c)%N && (c <=? hi')%N = false.
Proof.
  intros H A. apply andb_prop in H as [H1 H2]. apply N.leb_le in H1, H2. apply andb_false_iff. apply orb_prop in A as [A|A]; apply N.ltb_lt in A.
  - left. apply N.leb_gt. exact (N.le_lt_trans _ _ _ H2 A).
  - right. apply N.leb_gt. exact (N.lt_le_trans _ _ _ A H1).
Qed.
Lemma digit_not_letter c : is_digit c = true -> is_letter c = false.
Proof. intros H. unfold is_letter. rewrite (range_apart 48 57 65 90 c H eq_refl), (range_apart 48 57 97 122 c H eq_refl). reflexivity. Qed.
(* each of the eleven cases of `is_ws` is a single character or a range *)
Lemma ws_not_alnum c : is_ws c = true -> is_letter c = false /\ is_digit c = false.
Proof.
  intros H. unfold is_ws in H. repeat (apply orb_prop in H as [H|H]); try (apply N.eqb_eq in H; subst c; split; reflexivity).
  all: unfold is_letter, is_digit; rewrite (range_apart _ _ 65 90 c H eq_refl), (range_apart _ _ 97 122 c H eq_refl), (range_apart _ _ 48 57 c H eq_refl); split; reflexivity.
Qed.

Lemma word_span w s : forallb is_alnum_ w = true -> starts_alnum s = false -> span_while is_alnum_ (w ++ s) = (w, s).
Proof. intros Hw Hs. apply span_while_app; [exact Hw|]. destruct s as [|d s']; [exact I|exact Hs]. Qed.
Lemma word_step attr c r s : is_letter c || is_digit c = true -> forallb is_alnum_ r = true -> starts_alnum s = false ->
  lex_step1 attr ((c :: r) ++ s) = Go [] (c :: r) (Some ((if is_letter c then word_token attr else TkInt) (c :: r))) attr s.
Proof.
  intros Hc Hr Hs. cbn [app]. rewrite lex_step1_other by (rewrite Hc; reflexivity). unfold lex_other.
  change (c :: r ++ s) with ((c :: r) ++ s). rewrite word_span; [|cbn [forallb]; rewrite (alnum_of_class c Hc), Hr; reflexivity|exact Hs].
  destruct (is_letter c); [reflexivity|]. cbn [orb] in Hc. rewrite Hc. reflexivity.
Qed.
Lemma ws_step attr c r : is_ws c = true -> lex_step1 attr (c :: r) = Go [] [c] None attr r.
Proof.
  intros H. rewrite lex_step1_other by (rewrite H; apply orb_true_r). unfold lex_other. destruct (ws_not_alnum c H) as [-> ->]. rewrite H. reflexivity.
Qed.

Lemma not_slash text x : (match text with 47%N :: _ => False | _ => True end) -> (match x with [] => True | c :: _ => c = 10%N end) -> starts_with 47 (text ++ x) = false.
Proof.
  intros Ht Hx. destruct text as [|c t]; [destruct x as [|c x]; [reflexivity|subst c; reflexivity]|].
  cbn [app starts_with]. destruct (N.eqb_spec c 47) as [->|_]; [destruct Ht|reflexivity].
Qed.
Lemma comment_start_plain r : starts_with 47 r = false -> comment_start r = (2, false, r) /\ comment_start (47%N :: r) = (3, true, r).
Proof. intros H. destruct r as [|c3 r3]; [split; reflexivity|]. cbn [comment_start starts_with N.eqb Pos.eqb] in *. rewrite H. split; reflexivity. Qed.
Lemma span_line text x : no_nl text = true -> (match x with [] => True | c :: _ => c = 10%N end) -> span_while (fun c => negb (c =? 10)%N) (text ++ x) = (text, x).
Proof. intros Ht Hx. apply span_while_app; [exact Ht|]. destruct x as [|c x]; [exact I|subst c; reflexivity]. Qed.
Lemma line_step attr r n isdoc text x : comment_start r = (n, isdoc, text ++ x) -> no_nl text = true -> (match x with [] => True | c :: _ => c = 10%N end) ->
  lex_step1 attr (47%N :: 47%N :: r) = Go (repeat 47%N n) text (if isdoc then Some (TkDoc match rev text with 13%N :: t => rev t | _ => text end) else None) attr x.
Proof. intros C Ht Hx. cbn [lex_step1 N.eqb Pos.eqb]. rewrite C, (span_line text x Ht Hx). reflexivity. Qed.

Lemma blank_lexed b : blank b -> forall attr cur s, exists cur', lex_all attr cur (b ++ s) = lex_all attr cur' s.
Proof.
  induction 1 as [|c b Hc _ IH|text b Ht Hs _ IH|text b Ht _ IH|body b Hb _ IH]; intros attr cur s.
  - exists cur. reflexivity.
  - cbn [app]. rewrite lex_all_eq, (ws_step attr c (b ++ s) Hc). apply IH.
  - cbn [app]. rewrite <- app_assoc, lex_all_eq.
    rewrite (line_step attr _ 2 false text ((10%N :: b) ++ s)); [apply IH|apply comment_start_plain, not_slash; [exact Hs|reflexivity]|exact Ht|reflexivity].
  - cbn [app]. rewrite <- app_assoc, lex_all_eq.
    rewrite (line_step attr _ 3 false (47%N :: text) ((10%N :: b) ++ s)); [apply IH|reflexivity|exact Ht|reflexivity].
  - cbn [app]. rewrite <- app_assoc, lex_all_eq. cbn [app lex_step1 N.eqb Pos.eqb]. rewrite Hb. apply IH.
Qed.
Theorem blank_skipped b : blank b -> forall fuel attr cur s, length (b ++ s) < fuel -> exists cur', kinds_of (lex_block fuel attr cur (b ++ s)) = kinds_of (lex_block fuel attr cur' s).
Proof.
  intros Hb fuel attr cur s Hf. destruct (blank_lexed b Hb attr cur s) as [cur' E]. exists cur'. pose proof Hf as Hs. rewrite app_length in Hs.
  rewrite !lex_block_all by lia. f_equal. exact E.
Qed.

(* the first character of a pair on its own; at the end of the input the step itself returns the token: the premise on `rec` *)
Lemma double_alone rec cur c s d t2 t1 a : starts_with d s = false -> (forall a0 l, rec a0 l [] = ([], None, a0)) ->
  run rec cur (c :: s) (double_step c s d t2 t1 a) = emit cur (Some t1) (adv cur c) (rec a (adv cur c) s).
Proof. intros H Hnil. destruct s as [|c2 s2]; cbn [double_step run emit]; [rewrite Hnil; reflexivity|]. cbn [starts_with] in H. rewrite H. reflexivity. Qed.
(* `rec` lexes the rest: `lex_block f` in token_lexed, `lex_all` in rendered_lexed *)
Lemma spelled_step a t w a' s : spelled a t w a' s -> forall rec cur, (forall a0 l, rec a0 l [] = ([], None, a0)) ->
  exists l e, run rec cur (w ++ s) (lex_step1 a (w ++ s)) = emit l (Some t) e (rec a' e s).
Proof.
  destruct 1; intros rec cur Hnil; try (eexists _, _; reflexivity).
  1-4: exists cur; eexists; apply double_alone; assumption.
  - destruct w as [|c r]; [contradiction|]. destruct H as [Hc Hr]. rewrite word_step, Hc; [|rewrite Hc; reflexivity|exact Hr|exact H0]. eexists _, _. reflexivity.
  - destruct w as [|c r]; [contradiction|]. destruct H as [Hc Hr]. cbn [app lex_step1 N.eqb Pos.eqb]. rewrite Hc.
    change (c :: r ++ s) with ((c :: r) ++ s). rewrite word_span; [|cbn [forallb]; rewrite (alnum_of_class c), Hr; [reflexivity|rewrite Hc; reflexivity]|exact H0].
    eexists _, _. reflexivity.
  - destruct w as [|c r]; [contradiction|]. destruct H as [Hc Hr].
    rewrite word_step, (digit_not_letter c Hc); [|rewrite Hc; apply orb_true_r|exact Hr|exact H0]. eexists _, _. reflexivity.
  - cbn [app]. rewrite <- app_assoc. cbn [lex_step1 N.eqb Pos.eqb app]. rewrite H. eexists _, _. reflexivity.
  - cbn [app]. rewrite (line_step a _ 3 true text s); [|apply comment_start_plain, not_slash; assumption|exact H|exact H1]. eexists _, _. reflexivity.
Qed.
Lemma spelled_nonempty a t w a' s : spelled a t w a' s -> 1 <= length w.
Proof. destruct 1; try (destruct w; [contradiction|]); apply le_n_S, Nat.le_0_l. Qed.
Lemma lex_block_nil f a l : lex_block f a l [] = ([], None, a).
Proof. destruct f; reflexivity. Qed.
Theorem token_lexed a t w a' s : spelled a t w a' s -> forall f cur,
  exists cur', kinds_of (lex_block (S f) a cur (w ++ s)) = cons_kind t (kinds_of (lex_block f a' cur' s)).
Proof.
  intros Hs f cur. destruct (spelled_step a t w a' s Hs (lex_block f) cur (lex_block_nil f)) as (l & e & E). exists e.
  cbn [lex_block]. rewrite lex_step_run, E. apply kinds_emit.
Qed.

Lemma rendered_lexed a ts text a' : rendered a ts text a' -> forall cur, kinds_of (lex_all a cur text) = (ts, None, a').
Proof.
  induction 1 as [a b Hb|a t w a1 ts rest a2 b Hb Hs _ IH]; intros cur.
  - destruct (blank_lexed b Hb a cur []) as [cur' E]. rewrite app_nil_r in E. rewrite E. reflexivity.
  - destruct (blank_lexed b Hb a cur (w ++ rest)) as [cur' E]. rewrite E, lex_all_eq.
    destruct (spelled_step a t w a1 rest Hs lex_all cur' (fun a0 l => eq_refl)) as (l & e & T). rewrite T, kinds_emit, IH. reflexivity.
Qed.
Theorem layout_independent a ts text a' : rendered a ts text a' -> forall fuel cur, length text < fuel ->
  kinds_of (lex_block fuel a cur text) = (ts, None, a').
Proof. intros H fuel cur Hf. rewrite lex_block_all by exact Hf. apply rendered_lexed, H. Qed.
Corollary same_tokens_any_layout a ts t1 t2 a1 a2 c1 c2 : rendered a ts t1 a1 -> rendered a ts t2 a2 ->
  fst (fst (kinds_of (lex_block (S (length t1)) a c1 t1))) = fst (fst (kinds_of (lex_block (S (length t2)) a c2 t2))).
Proof. intros H1 H2. rewrite (layout_independent _ _ _ _ H1), (layout_independent _ _ _ _ H2) by lia. reflexivity. Qed.

(* non-vacuity: ` struct/**/S` is a rendering of the two tokens struct, S *)
Example ex_rendered : rendered false [TkKw KwStruct; TkIdent [83%N]] ([32%N] ++ [115; 116; 114; 117; 99; 116]%N ++ ([47; 42; 42; 47]%N ++ [83%N] ++ [])) false.
Proof.
  refine (rd_tok false (word_token false [115; 116; 114; 117; 99; 116]%N) _ false _ _ false [32%N] (bl_ws 32%N [] eq_refl bl_nil) _ _).
  - apply sp_word; [split; reflexivity|reflexivity].
  - refine (rd_tok false (word_token false [83%N]) [83%N] false [] [] false [47; 42; 42; 47]%N _ _ (rd_end false [] bl_nil)).
    + exact (bl_block [] [] (fun rest => eq_refl) bl_nil).
    + apply sp_word; [split; reflexivity|reflexivity].
Qed.
