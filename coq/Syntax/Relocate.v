(* The parser never looks at locations (C02): on two token sequences of the same kinds -- whatever their locations -- every
   production returns results that are equal once locations are erased: the same syntax tree, the same diagnostics in the same
   order, the same error (same offending token kind), for every input, well-formed or not.  With LexerProofs.layout_independent:
   what a file means cannot depend on white space, line breaks or comments. *)
From Coq Require Import List Bool ZArith.
From SliceV Require Import Syntax.Tokens Syntax.Lexer Syntax.Parser.
Import ListNotations.
Local Open Scope nat_scope.

Definition Z0 : loc := mkloc 0 0.
Definition E0 : sspan := mksspan Z0 Z0.
Definition kind (p : ptok) : token := snd (fst p).
Definition ekind (e : plexerr) : lexerr := snd (fst e).
Definition er_ident (i : sident) : sident := mksident (si_val i) E0.
Definition er_attr (a : attr) : attr := mkattr (at_dir a) (at_args a) E0.
Fixpoint er_tref (t : stref) : stref := match t with STRef _ o attrs d => STRef E0 o (map er_attr attrs) (er_def d) end
with er_def (d : stdef) : stdef :=
  match d with
  | DPrim p => DPrim p | DSeq e => DSeq (er_tref e) | DDict k v => DDict (er_tref k) (er_tref v) | DRes k v => DRes (er_tref k) (er_tref v)
  | DNamed i => DNamed (er_ident i)
  end.
Definition er_doc (d : doclines) : doclines := map (fun p => (fst p, E0)) d.
Definition er_tag (t : option (Z * sspan)) : option (Z * sspan) := option_map (fun p => (fst p, E0)) t.
Definition er_member (m : smember) : smember :=
  mksmember (er_doc (sm_doc m)) (map er_attr (sm_attrs m)) (er_tag (sm_tag m)) (er_ident (sm_name m)) (sm_stream m) (er_tref (sm_type m)) E0.
Definition er_enumerator (e : enumerator) : enumerator :=
  mkenumerator (er_doc (se_doc e)) (map er_attr (se_attrs e)) (er_ident (se_name e)) (option_map (map er_member) (se_fields e)) (se_value e)
    (option_map (fun _ => E0) (se_explicit e)) E0.
Definition er_operation (o : operation) : operation :=
  mkoperation (er_doc (so_doc o)) (map er_attr (so_attrs o)) (so_idem o) (er_ident (so_name o)) (map er_member (so_params o)) (map er_member (so_rets o)) E0.
Definition er_defn (d : defn) : defn :=
  match d with
  | DStruct doc attrs c n fs _ => DStruct (er_doc doc) (map er_attr attrs) c (er_ident n) (map er_member fs) E0
  | DIface doc attrs n bs os _ => DIface (er_doc doc) (map er_attr attrs) (er_ident n) (map er_tref bs) (map er_operation os) E0
  | DEnum doc attrs c u n un es _ => DEnum (er_doc doc) (map er_attr attrs) c u (er_ident n) (option_map er_tref un) (map er_enumerator es) E0
  | DCustom doc attrs n _ => DCustom (er_doc doc) (map er_attr attrs) (er_ident n) E0
  | DAlias doc attrs n t _ => DAlias (er_doc doc) (map er_attr attrs) (er_ident n) (er_tref t) E0
  end.
Definition er_modul (m : modul) : modul := mkmodul (er_doc (mo_doc m)) (map er_attr (mo_attrs m)) (er_ident (mo_name m)) E0.
Definition er_file (f : file) : file := mkfile (map er_attr (f_attrs f)) (option_map er_modul (f_module f)) (map er_defn (f_defs f)).
Definition er_err (e : perror) : perror :=
  match e with PeToken t => PeToken (Z0, kind t, Z0) | PeEof _ => PeEof Z0 | PeLex x => PeLex (Z0, ekind x, Z0) | PeFuel => PeFuel end.

(* two parser states that differ in locations only *)
Definition ksim (s s' : pstate) : Prop :=
  map kind (ps_toks s) = map kind (ps_toks s') /\ option_map ekind (ps_lexerr s) = option_map ekind (ps_lexerr s') /\
  map fst (ps_diags s) = map fst (ps_diags s').
Definition rsim {A B} (er : A -> B) (r r' : pres A) : Prop :=
  match r, r' with
  | POk_ a s, POk_ a' s' => er a = er a' /\ ksim s s'
  | PErr_ e, PErr_ e' => er_err e = er_err e'
  | _, _ => False
  end.
(* How it is proved: erase the locations of a whole parser state; every production commutes with that, so what it returns on
   two states with the same erasure is the same once erased. *)
Definition er_tok (p : ptok) : ptok := (Z0, kind p, Z0).
Definition er_lex (e : plexerr) : plexerr := (Z0, ekind e, Z0).
Definition er_state (s : pstate) : pstate :=
  mkps (map er_tok (ps_toks s)) (option_map er_lex (ps_lexerr s)) Z0 (map (fun d => (fst d, E0)) (ps_diags s)).
Definition er_res {A B} (er : A -> B) (r : pres A) : pres B :=
  match r with POk_ a s => POk_ (er a) (er_state s) | PErr_ e => PErr_ (er_err e) end.
Definition commutes {A} (er : A -> A) (p : pstate -> pres A) : Prop := forall s, er_res er (p s) = p (er_state s).

Lemma map_through {A B C} (f : A -> B) (g : B -> C) l l' : map f l = map f l' -> map (fun x => g (f x)) l = map (fun x => g (f x)) l'.
Proof. intros H. rewrite <- (map_map f g l), <- (map_map f g l'), H. reflexivity. Qed.
Lemma opt_through {A B C} (f : A -> B) (g : B -> C) o o' :
  option_map f o = option_map f o' -> option_map (fun x => g (f x)) o = option_map (fun x => g (f x)) o'.
Proof. destruct o, o'; cbn; intros H; try discriminate H; [injection H as ->|]; reflexivity. Qed.
Lemma ksim_er s s' : ksim s s' <-> er_state s = er_state s'.
Proof.
  unfold ksim, er_state. split.
  - intros (H1 & H2 & H3). f_equal; [exact (map_through kind (fun k => (Z0, k, Z0)) _ _ H1)|exact (opt_through ekind (fun k => (Z0, k, Z0)) _ _ H2)|
      exact (map_through fst (fun d => (d, E0)) _ _ H3)].
  - intros H. injection H as H1 H2 H3. repeat split; [exact (map_through er_tok kind _ _ H1)|exact (opt_through er_lex ekind _ _ H2)|
      exact (map_through _ fst _ _ H3)].
Qed.
Lemma rsim_er {A B} (er : A -> B) r r' : er_res er r = er_res er r' -> rsim er r r'.
Proof. destruct r, r'; cbn; intros H; [split; [|apply ksim_er]; congruence|congruence..]. Qed.
Lemma er_sim {A} (er : A -> A) (p : pstate -> pres A) : commutes er p -> forall s s', ksim s s' -> rsim er (p s) (p s').
Proof. intros C s s' K. apply rsim_er. rewrite !C, (proj1 (ksim_er s s') K). reflexivity. Qed.

Lemma bind_er {A B} (era : A -> A) (erb : B -> B) r r' (k k' : A -> pstate -> pres B) :
  er_res era r = r' -> (forall a s, er_res erb (k a s) = k' (era a) (er_state s)) -> er_res erb (pbind r k) = pbind r' k'.
Proof. intros <- H. destruct r as [a s|e]; [apply H|reflexivity]. Qed.
(* bind_by L: the next sub-parser of a production commutes by L; what follows is shown for the value and state it returns
   (written out with bind_er where their names are needed) *)
Ltac bind_by L := eapply bind_er; [apply L|intros ? ?].

Lemma toks_er s : ps_toks (er_state s) = map er_tok (ps_toks s).
Proof. reflexivity. Qed.
Lemma peek_er s : peek (er_state s) = peek s.
Proof. destruct s as [[|[[l t] e] r] le la dg]; reflexivity. Qed.
Lemma is_tok_er s t : is_tok (er_state s) t = is_tok s t.
Proof. unfold is_tok. rewrite peek_er. reflexivity. Qed.
Lemma is_kw_er s k : is_kw (er_state s) k = is_kw s k.
Proof. unfold is_kw. rewrite peek_er. reflexivity. Qed.
Lemma next_start_er s : next_start (er_state s) = Z0.
Proof. destruct s as [[|[[l t] e] r] le la dg]; reflexivity. Qed.
Lemma advance_er s : advance (er_state s) = er_state (advance s).
Proof. destruct s as [[|[[l t] e] r] le la dg]; reflexivity. Qed.
Lemma add_diag_er s d sp : er_state (add_diag s d sp) = add_diag (er_state s) d E0.
Proof. unfold add_diag, er_state. cbn. rewrite map_app. reflexivity. Qed.
Lemma fail_er {A} (er : A -> A) : commutes er fail_here.
Proof. intros s. destruct s as [[|t r] [e|] la dg]; reflexivity. Qed.
Lemma eof_er {A} (er : A -> A) (v : A) s :
  er_res er (match ps_lexerr s with Some e => PErr_ (PeLex e) | None => POk_ v s end) =
  match ps_lexerr (er_state s) with Some e => PErr_ (PeLex e) | None => POk_ (er v) (er_state s) end.
Proof. destruct s as [ts [e|] la dg]; reflexivity. Qed.
Lemma expect_er t : commutes (fun u => u) (expect t).
Proof. intros s. unfold expect. rewrite is_tok_er, advance_er. destruct (is_tok s t); [reflexivity|apply fail_er]. Qed.
Lemma expect_kw_er k : commutes (fun u => u) (expect_kw k).
Proof. intros s. unfold expect_kw. rewrite is_kw_er, advance_er. destruct (is_kw s k); [reflexivity|apply fail_er]. Qed.
Lemma opt_tok_er t s : opt_tok t (er_state s) = (fst (opt_tok t s), er_state (snd (opt_tok t s))).
Proof. unfold opt_tok. rewrite is_tok_er, advance_er. destruct (is_tok s t); reflexivity. Qed.
Lemma opt_kw_er k s : opt_kw k (er_state s) = (fst (opt_kw k s), er_state (snd (opt_kw k s))).
Proof. unfold opt_kw. rewrite is_kw_er, advance_er. destruct (is_kw s k); reflexivity. Qed.
Lemma if_tok_er {A} (er : A -> A) t s (p q p' q' : pres A) :
  er_res er p = p' -> er_res er q = q' -> er_res er (if is_tok s t then p else q) = if is_tok (er_state s) t then p' else q'.
Proof. intros <- <-. rewrite is_tok_er. destruct (is_tok s t); reflexivity. Qed.
Lemma if_kw_er {A} (er : A -> A) k s (p q p' q' : pres A) :
  er_res er p = p' -> er_res er q = q' -> er_res er (if is_kw s k then p else q) = if is_kw (er_state s) k then p' else q'.
Proof. intros <- <-. rewrite is_kw_er. destruct (is_kw s k); reflexivity. Qed.
(* an optional symbol *)
Lemma let_pair_er {A} (er : A -> A) (x x' : bool * pstate) (f f' : bool -> pstate -> pres A) :
  x' = (fst x, er_state (snd x)) -> (forall o s, er_res er (f o s) = f' o (er_state s)) ->
  er_res er (let '(o, s) := x in f o s) = let '(o, s) := x' in f' o s.
Proof. intros -> H. destruct x. apply H. Qed.

(* the case split on the next token, for both runs at once *)
Lemma both_toks_case s (P : list ptok -> list ptok -> Prop) :
  P [] [] -> (forall l t e r, P ((l, t, e) :: r) ((Z0, t, Z0) :: map er_tok r)) -> P (ps_toks s) (ps_toks (er_state s)).
Proof. intros H0 H1. rewrite toks_er. destruct (ps_toks s) as [|[[l t] e] r]; [exact H0|apply H1]. Qed.

Lemma p_identifier_er : commutes er_ident p_identifier.
Proof.
  intros s. unfold p_identifier. pose proof (fail_er er_ident s) as F.
  apply both_toks_case; [exact F|intros l t e r]. destruct t; try exact F. rewrite advance_er. reflexivity.
Qed.
Lemma p_scoped_tail_er fuel : forall acc, commutes (fun v => v) (p_scoped_tail fuel acc).
Proof.
  induction fuel as [|f IH]; intros acc s; cbn [p_scoped_tail]; [reflexivity|].
  apply if_tok_er; [|reflexivity]. cbv zeta. rewrite !advance_er. pose proof (fail_er (fun v : list N => v) (advance s)) as F.
  apply both_toks_case; [exact F|intros l t e r]. destruct t; try exact F. apply IH.
Qed.
Lemma p_relative_identifier_er fuel : commutes er_ident (p_relative_identifier fuel).
Proof.
  intros s. unfold p_relative_identifier. pose proof (fail_er er_ident s) as F.
  apply both_toks_case; [exact F|intros l t e r]. destruct t; try exact F.
  rewrite advance_er. bind_by p_scoped_tail_er. reflexivity.
Qed.
Lemma p_global_identifier_er fuel : commutes er_ident (p_global_identifier fuel).
Proof.
  intros s. unfold p_global_identifier. apply if_tok_er; [|apply fail_er]. cbv zeta. rewrite next_start_er, !advance_er. pose proof (fail_er er_ident (advance s)) as F.
  apply both_toks_case; [exact F|intros l t e r]. destruct t; try exact F.
  bind_by p_scoped_tail_er. reflexivity.
Qed.
Definition er_int (p : Z * sspan) : Z * sspan := (fst p, E0).
Lemma p_integer_er : commutes er_int p_integer.
Proof.
  intros s. unfold p_integer. pose proof (fail_er er_int s) as F.
  apply both_toks_case; [exact F|intros l t e r]. destruct t; try exact F.
  cbv zeta. rewrite advance_er. destruct (parse_int _) as [[z| |] b]; cbn [er_res]; rewrite ?add_diag_er; reflexivity.
Qed.
Lemma p_signed_integer_er : commutes er_int p_signed_integer.
Proof.
  intros s. unfold p_signed_integer. apply if_tok_er; [|apply p_integer_er]. cbv zeta. rewrite next_start_er, advance_er. bind_by p_integer_er. reflexivity.
Qed.
Lemma p_tag_er : commutes er_int p_tag.
Proof.
  intros s. unfold p_tag. bind_by expect_kw_er. bind_by expect_er. bind_by p_signed_integer_er. bind_by expect_er.
  cbn [er_int fst snd]. destruct (_ || _); cbn [er_res]; rewrite ?add_diag_er; reflexivity.
Qed.

Lemma p_attr_args_er fuel : commutes (fun a => a) (p_attr_args fuel).
Proof.
  induction fuel as [|f IH]; intros s; cbn [p_attr_args]; [reflexivity|].
  pose proof (fail_er (fun a : list (list N) => a) (advance (advance s))) as F.
  assert (D : er_res (fun a : list (list N) => a) (POk_ [] s) = POk_ [] (er_state s)) by reflexivity.
  apply both_toks_case; [exact D|intros l t e r]. destruct t; try exact D.
  all: cbv zeta; rewrite !advance_er; apply if_tok_er; [|reflexivity]; apply if_tok_er; [reflexivity|].
  all: eapply bind_er; [apply IH|intros a s3]; destruct a; [exact F|reflexivity].
Qed.
Lemma p_attribute_er fuel : commutes er_attr (p_attribute fuel).
Proof.
  intros s. unfold p_attribute. cbv zeta. rewrite next_start_er. bind_by p_relative_identifier_er.
  apply if_tok_er; [|reflexivity]. rewrite advance_er. bind_by p_attr_args_er. bind_by expect_er. reflexivity.
Qed.
Lemma p_local_attribute_er fuel : commutes er_attr (p_local_attribute fuel).
Proof. intros s. unfold p_local_attribute. bind_by expect_er. bind_by p_attribute_er. bind_by expect_er. reflexivity. Qed.
Lemma p_local_attributes_er fuel : commutes (map er_attr) (p_local_attributes fuel).
Proof.
  induction fuel as [|f IH]; intros s; cbn [p_local_attributes]; [reflexivity|].
  apply if_tok_er; [|reflexivity]. bind_by p_local_attribute_er. bind_by IH. reflexivity.
Qed.
Lemma p_file_attributes_er fuel : commutes (map er_attr) (p_file_attributes fuel).
Proof.
  induction fuel as [|f IH]; intros s; cbn [p_file_attributes]; [reflexivity|].
  apply if_tok_er; [|reflexivity]. rewrite advance_er. bind_by p_attribute_er. bind_by expect_er. bind_by IH. reflexivity.
Qed.
Definition er_prelude (p : doclines * list attr) : doclines * list attr := (er_doc (fst p), map er_attr (snd p)).
Lemma p_prelude_er fuel : commutes er_prelude (p_prelude fuel).
Proof.
  induction fuel as [|f IH]; intros s; cbn [p_prelude]; [reflexivity|].
  assert (D : er_res er_prelude (POk_ ([], []) s) = POk_ ([], []) (er_state s)) by reflexivity.
  apply both_toks_case; [exact D|intros l t e r]. destruct t; try exact D.
  - rewrite advance_er. bind_by IH. reflexivity.
  - bind_by p_local_attribute_er. bind_by IH. reflexivity.
Qed.

Lemma p_typeref_er fuel : commutes er_tref (p_typeref fuel).
Proof.
  induction fuel as [|f IH]; intros s; cbn [p_typeref]; [reflexivity|]. cbv zeta. rewrite next_start_er.
  eapply bind_er; [apply p_local_attributes_er|intros attrs s1]. eapply (bind_er er_def).
  - rewrite !advance_er. pose proof (fail_er er_def s1) as F.
    apply both_toks_case; [exact F|intros l t e r]. destruct t; try exact F.
    + bind_by p_relative_identifier_er. reflexivity.
    + destruct k; try exact F.
      * bind_by expect_er. bind_by IH. bind_by expect_er. bind_by IH. bind_by expect_er. reflexivity.
      * bind_by expect_er. bind_by IH. bind_by expect_er. reflexivity.
      * bind_by expect_er. bind_by IH. bind_by expect_er. bind_by IH. bind_by expect_er. reflexivity.
      * reflexivity.
    + bind_by p_global_identifier_er. reflexivity.
  - intros d s2. eapply let_pair_er; [apply opt_tok_er|intros o s3]. reflexivity.
Qed.

Lemma opt_tag_er : commutes er_tag (fun s => if is_kw s KwTag then plet t, a <- p_tag s ;; POk_ (Some t) a else POk_ None s).
Proof. intros s. apply if_kw_er; [|reflexivity]. bind_by p_tag_er. reflexivity. Qed.
Lemma p_member_er ip fuel : commutes er_member (p_member ip fuel).
Proof.
  intros s. unfold p_member. eapply bind_er; [apply p_prelude_er|intros pre s1]. cbv zeta. rewrite next_start_er.
  bind_by opt_tag_er. bind_by p_identifier_er. bind_by expect_er. destruct ip.
  - eapply let_pair_er; [apply opt_kw_er|intros stream s5]. bind_by p_typeref_er.
    destruct pre as [[|d doc] attrs]; cbn [er_res fst]; rewrite ?add_diag_er; reflexivity.
  - bind_by p_typeref_er. reflexivity.
Qed.
Lemma starts_member_er s : starts_member (er_state s) = starts_member s.
Proof. unfold starts_member. rewrite peek_er. reflexivity. Qed.
Lemma p_members_er ip fuel : commutes (map er_member) (p_members ip fuel).
Proof.
  induction fuel as [|f IH]; intros s; cbn [p_members]; [reflexivity|].
  rewrite starts_member_er. destruct (starts_member s); [|reflexivity].
  bind_by p_member_er. eapply let_pair_er; [apply opt_tok_er|intros c s2]. bind_by IH. reflexivity.
Qed.
Lemma p_return_type_er fuel : commutes (map er_member) (p_return_type fuel).
Proof.
  intros s. unfold p_return_type. bind_by expect_er. cbv zeta. rewrite next_start_er. apply if_tok_er.
  - rewrite advance_er. eapply bind_er; [apply p_members_er|intros ps s2]. bind_by expect_er.
    destruct ps as [|p1 [|p2 ps]]; cbn [er_res map]; rewrite ?add_diag_er; reflexivity.
  - bind_by opt_tag_er. eapply let_pair_er; [apply opt_kw_er|intros stream s3]. bind_by p_typeref_er. reflexivity.
Qed.
Lemma p_operation_er fuel : commutes er_operation (p_operation fuel).
Proof.
  intros s. unfold p_operation. bind_by p_prelude_er. cbv zeta. rewrite next_start_er. eapply let_pair_er; [apply opt_kw_er|intros idem s2].
  bind_by p_identifier_er. bind_by expect_er. bind_by p_members_er. bind_by expect_er.
  eapply (bind_er (map er_member)).
  - apply if_tok_er; [apply p_return_type_er|reflexivity].
  - intros rs s7. reflexivity.
Qed.
Lemma starts_operation_er s : starts_operation (er_state s) = starts_operation s.
Proof. unfold starts_operation. rewrite peek_er. reflexivity. Qed.
Lemma p_operations_er fuel : commutes (map er_operation) (p_operations fuel).
Proof.
  induction fuel as [|f IH]; intros s; cbn [p_operations]; [reflexivity|].
  rewrite starts_operation_er. destruct (starts_operation s); [|reflexivity].
  bind_by p_operation_er. bind_by IH. reflexivity.
Qed.

Lemma p_enumerator_er fuel prev : commutes er_enumerator (p_enumerator fuel prev).
Proof.
  intros s. unfold p_enumerator. bind_by p_prelude_er. cbv zeta. rewrite next_start_er. bind_by p_identifier_er.
  eapply (bind_er (option_map (map er_member))).
  { apply if_tok_er; [|reflexivity]. rewrite advance_er. bind_by p_members_er. bind_by expect_er. reflexivity. }
  intros fields s3. eapply (bind_er (option_map er_int)).
  { apply if_tok_er; [|reflexivity]. rewrite advance_er. bind_by p_signed_integer_er. reflexivity. }
  intros value s4. destruct value as [i|]; reflexivity.
Qed.
Lemma starts_enumerator_er s : starts_enumerator (er_state s) = starts_enumerator s.
Proof. unfold starts_enumerator. rewrite peek_er. reflexivity. Qed.
Lemma p_enumerators_er fuel : forall prev, commutes (map er_enumerator) (p_enumerators fuel prev).
Proof.
  induction fuel as [|f IH]; intros prev s; cbn [p_enumerators]; [reflexivity|].
  rewrite starts_enumerator_er. destruct (starts_enumerator s); [|reflexivity].
  bind_by p_enumerator_er. eapply let_pair_er; [apply opt_tok_er|intros c s2]. bind_by IH. reflexivity.
Qed.
Lemma p_bases_er fuel : commutes (map er_tref) (p_bases fuel).
Proof.
  induction fuel as [|f IH]; intros s; cbn [p_bases]; [reflexivity|].
  bind_by p_typeref_er. cbv zeta. apply if_tok_er; [|reflexivity]. rewrite advance_er. apply if_tok_er; [reflexivity|]. bind_by IH. reflexivity.
Qed.

Lemma p_definition_after_prelude_er fuel pre s :
  er_res er_defn (p_definition_after_prelude fuel pre s) = p_definition_after_prelude fuel (er_prelude pre) (er_state s).
Proof.
  unfold p_definition_after_prelude. cbv zeta. destruct pre as [doc attrs]. cbn [er_prelude fst snd]. rewrite next_start_er.
  eapply let_pair_er; [apply opt_kw_er|intros compact s1]. apply if_kw_er.
  { rewrite advance_er. bind_by p_identifier_er. bind_by expect_er. bind_by p_members_er. bind_by expect_er. reflexivity. }
  eapply let_pair_er; [apply opt_kw_er|intros unchecked s2]. apply if_kw_er.
  { rewrite advance_er. bind_by p_identifier_er. eapply (bind_er (option_map er_tref)).
    { apply if_tok_er; [|reflexivity]. rewrite advance_er. bind_by p_typeref_er. reflexivity. }
    intros under s4. bind_by expect_er. bind_by p_enumerators_er. bind_by expect_er. reflexivity. }
  destruct (compact || unchecked); [apply fail_er|]. rewrite advance_er. apply if_kw_er.
  { bind_by p_identifier_er. eapply (bind_er (map er_tref)).
    { apply if_tok_er; [|reflexivity]. rewrite advance_er. apply p_bases_er. }
    intros bases s4. bind_by expect_er. bind_by p_operations_er. bind_by expect_er. reflexivity. }
  apply if_kw_er.
  { bind_by p_identifier_er. reflexivity. }
  apply if_kw_er; [|apply fail_er].
  bind_by p_identifier_er. bind_by expect_er. bind_by p_typeref_er. reflexivity.
Qed.
Lemma p_definitions_er fuel : commutes (map er_defn) (p_definitions fuel).
Proof.
  induction fuel as [|f IH]; intros s; cbn [p_definitions]; [reflexivity|].
  rewrite toks_er. destruct (ps_toks s); [apply (eof_er (map er_defn))|].
  bind_by p_prelude_er. bind_by p_definition_after_prelude_er. bind_by IH. reflexivity.
Qed.
Theorem p_file_er fuel : commutes er_file (p_file fuel).
Proof.
  intros s. unfold p_file. bind_by p_file_attributes_er. rewrite toks_er. destruct (ps_toks _); [apply (eof_er er_file)|].
  eapply bind_er; [apply p_prelude_er|intros pre s2]. apply if_kw_er.
  - cbv zeta. rewrite next_start_er, advance_er. bind_by p_relative_identifier_er. eapply (bind_er (map er_defn)).
    + destruct pre as [[|d doc] attrs]; cbn [fst]; rewrite (p_definitions_er fuel _), ?add_diag_er; reflexivity.
    + intros ds s5. reflexivity.
  - bind_by p_definition_after_prelude_er. bind_by p_definitions_er. cbn [er_res]. rewrite add_diag_er. reflexivity.
Qed.
(* C02: token sequences of the same kinds give the same file, diagnostics (in the same order) and error, locations aside *)
Theorem p_file_sim fuel s s' : ksim s s' -> rsim er_file (p_file fuel s) (p_file fuel s').
Proof. exact (er_sim er_file (p_file fuel) (p_file_er fuel) s s'). Qed.
