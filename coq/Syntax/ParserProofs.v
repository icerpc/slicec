(* Token-level read-back with exact locations (C02, C09): whatever locations the tokens of a written element carry (any layout),
   the parser returns that element, and the location it records for it and for each nested element runs from the start of its
   first token to the end of its last token.  Every production X has a relation written_X (which tokens spell which element, and
   the locations the element then records) and a lemma X_written: on these tokens followed by anything that cannot continue X,
   the parser returns the element and stops right behind them.  This file has what the productions share (`reads`, the tests on
   the next token, the tactics), scoped identifiers, and type expressions without attributes described twice: `spells`/`says`
   relate tokens and AST to a syntax without locations, `written` relates tokens to the AST with its locations and is the case
   "no attributes" of ParserProofs2.writtenA, through which it is read back.  At the end stand small facts about enumerator
   values, words between brackets, and rows and columns.  ParserProofs2.v goes from attributes to structs, ParserProofs3.v
   from there to whole files. *)
From Coq Require Import List Bool NArith ZArith Arith Lia.
From SliceV Require Import Cli.PluginSpec Doc.Comment Syntax.Tokens Syntax.Lexer Syntax.Parser.
Import ListNotations.
Local Open Scope nat_scope.

Definition pstart (p : ptok) : loc := fst (fst p).
Definition pend (p : ptok) : loc := snd p.
Definition first_start (pts : list ptok) (d : loc) : loc := match pts with p :: _ => pstart p | [] => d end.
Definition last_end (pts : list ptok) (d : loc) : loc := match rev pts with p :: _ => pend p | [] => d end.
Definition L0 : loc := mkloc 0 0.
Lemma last_end_app a b d : last_end (a ++ b) d = last_end b (last_end a d).
Proof. unfold last_end. rewrite rev_app_distr. destruct (rev b); [rewrite app_nil_l; reflexivity|reflexivity]. Qed.
Lemma last_end_cons p a d : last_end (p :: a) d = last_end a (pend p).
Proof. exact (last_end_app [p] a d). Qed.
(* where the next token starts is decided by the tokens ahead up to the first that is surely there, p: what stands behind p
   (b on the left, any b' on the right) and the default d do not matter.  The caller chooses b' and d. *)
Lemma next_start_mid {a p b le last dg} b' d : next_start (mkps (a ++ p :: b) le last dg) = first_start (a ++ p :: b') d.
Proof. destruct a as [|[[? ?] ?] ?], p as [[? ?] ?]; reflexivity. Qed.

Definition next_is (t : token) (ts : list ptok) : Prop := match ts with (_, x, _) :: _ => token_eqb x t = true | [] => False end.
Lemma not_next_is t ts : ~ next_is t ts -> forall le last dg, is_tok (mkps ts le last dg) t = false.
Proof. destruct ts as [|[[l x] e] r]; [reflexivity|]. intros H le last dg. exact (not_true_is_false _ H). Qed.
Lemma opt_tok_miss t ts : ~ next_is t ts -> forall le last dg, opt_tok t (mkps ts le last dg) = (false, mkps ts le last dg).
Proof. intros H le last dg. unfold opt_tok. rewrite (not_next_is _ _ H). reflexivity. Qed.
(* a keyword that may or may not be written, in the words of the relations *)
Lemma opt_kw_written k b pts : b = false /\ pts = [] \/ b = true /\ (exists l e, pts = [(l, TkKw k, e)]) -> forall rest le last dg,
  kw_eqb k k = true -> is_kw (mkps rest le last dg) k = false ->
  opt_kw k (mkps (pts ++ rest) le last dg) = (b, mkps rest le (last_end pts last) dg).
Proof. intros [[-> ->]|(-> & l & e & ->)] rest le last dg Hk Hn; unfold opt_kw; cbn [app]; [rewrite Hn|cbn [is_kw peek ps_toks]; rewrite Hk]; reflexivity. Qed.
(* a declaration begins with a doc comment line, "[", an identifier or a keyword: with no symbol other than "[" *)
Definition decl_first (ts : list ptok) : Prop :=
  match ts with (_, (TkDoc _ | TkLBracket | TkIdent _ | TkKw _), _) :: _ => True | _ => False end.
Lemma decl_first_next ts t : decl_first ts -> t <> TkLBracket -> ~ next_is t ts.
Proof. destruct ts as [|[[l x] e] r]; [intros []|]. intros D Ht. destruct x; try case D; cbn; try discriminate. destruct t; try discriminate. congruence. Qed.

(* p reads a from pts in front of rest, and leaves everything else in the state as it was *)
Definition reads {A} (p : pstate -> pres A) (a : A) (pts rest : list ptok) : Prop :=
  forall le last dg, p (mkps (pts ++ rest) le last dg) = POk_ a (mkps rest le (last_end pts last) dg).

(* A proof of X_written goes through the production part by part: rewrite with the lemma of the part, then compute over the
   tokens written out behind it.
   len H: the length of a partly written-out list in the fuel hypothesis H.  flat: the tokens still to be read as one list with
   its front written out. *)
Ltac len H := repeat first [rewrite app_length in H | progress cbn [length] in H].
Ltac flat := cbn [app]; repeat (rewrite <- app_assoc; cbn [app]).
(* step: the parser's tests and single steps compute on a first token that is written out, and stay folded, for the lemma of the
   part that stands there, on one that is not *)
Ltac step := cbn [pbind expect expect_kw opt_tok opt_kw is_tok is_kw peek next_start advance p_identifier
                  ps_toks ps_lexerr ps_last ps_diags token_eqb kw_eqb orb fst snd app].
(* side: what such a lemma asks -- enough fuel (ptok is unfolded because lia tells list types apart by their spelling), and a
   next token that is written out or was assumed not to continue the part *)
Ltac not_next := cbn; solve [discriminate | intros []].
Ltac side := first [eassumption | reflexivity | not_next | split; not_next | unfold ptok in *; cbn [length]; lia].
(* part L: rewrite with L, the lemma of the part that stands next (its `reads` unfolded first: rewrite finds an equation only
   when it is written out); what L asks is left to side, and what side cannot do comes back behind the main goal *)
Ltac part L := let R := fresh in pose proof L as R; unfold reads in R; erewrite R; clear R; [|try side..].
(* extents: at the end both sides come to the same nest of last_end, one level for each list that is not written out (the states
   that the result still mentions are projected away first: rewriting inside their copies is slow) *)
Ltac nest := cbn [pbind ps_last next_start ps_toks first_start pstart pend fst snd app]; repeat (progress rewrite ?last_end_app, ?last_end_cons).
Ltac extents := nest; reflexivity.

(* type expressions as written, attributes on type references left out *)
Inductive utype := UT (opt : bool) (d : udef)
with udef := UPrim (p : prim) | USeq (e : utype) | UDict (k v : utype) | URes (s f : utype) | UNamed (global : bool) (first : list N) (more : list (list N)).
(* positioned tokens spelling a scoped identifier's tail and a type expression; locations are arbitrary *)
Inductive spells_tail : list (list N) -> list ptok -> Prop :=
| st_nil : spells_tail [] []
| st_cons seg r pts l1 e1 l2 e2 : spells_tail r pts -> spells_tail (seg :: r) ((l1, TkDColon, e1) :: (l2, TkIdent seg, e2) :: pts).
Inductive spells : utype -> list ptok -> Prop :=
| sp_plain d pts : spells_d d pts -> spells (UT false d) pts
| sp_opt d pts l e : spells_d d pts -> spells (UT true d) (pts ++ [(l, TkQuestion, e)])
with spells_d : udef -> list ptok -> Prop :=
| sd_prim p l e : spells_d (UPrim p) [(l, TkKw (KwPrim p), e)]
| sd_seq u pts l1 e1 l2 e2 l3 e3 : spells u pts -> spells_d (USeq u) ((l1, TkKw KwSequence, e1) :: (l2, TkLt, e2) :: pts ++ [(l3, TkGt, e3)])
| sd_dict k v pk pv l1 e1 l2 e2 l3 e3 l4 e4 : spells k pk -> spells v pv ->
    spells_d (UDict k v) ((l1, TkKw KwDictionary, e1) :: (l2, TkLt, e2) :: pk ++ (l3, TkComma, e3) :: pv ++ [(l4, TkGt, e4)])
| sd_res k v pk pv l1 e1 l2 e2 l3 e3 l4 e4 : spells k pk -> spells v pv ->
    spells_d (URes k v) ((l1, TkKw KwResult, e1) :: (l2, TkLt, e2) :: pk ++ (l3, TkComma, e3) :: pv ++ [(l4, TkGt, e4)])
| sd_rel first more pts l e : spells_tail more pts -> spells_d (UNamed false first more) ((l, TkIdent first, e) :: pts)
| sd_glob first more pts l0 e0 l e : spells_tail more pts -> spells_d (UNamed true first more) ((l0, TkDColon, e0) :: (l, TkIdent first, e) :: pts).
Scheme spells_ind2 := Induction for spells Sort Prop with spells_d_ind2 := Induction for spells_d Sort Prop.

(* what the AST says, locations aside; a reference that carries attributes says nothing *)
Definition joined (global : bool) (first : list N) (more : list (list N)) : list N :=
  (if global then sep else []) ++ first ++ concat (map (fun s => sep ++ s) more).
Inductive says : stref -> utype -> Prop :=
| says_ref sp o d u : says_d d u -> says (STRef sp o [] d) (UT o u)
with says_d : stdef -> udef -> Prop :=
| sy_prim p : says_d (DPrim p) (UPrim p)
| sy_seq t u : says t u -> says_d (DSeq t) (USeq u)
| sy_dict a b ua ub : says a ua -> says b ub -> says_d (DDict a b) (UDict ua ub)
| sy_res a b ua ub : says a ua -> says b ub -> says_d (DRes a b) (URes ua ub)
| sy_named g first more sp : says_d (DNamed (mksident (joined g first more) sp)) (UNamed g first more).
Definition tref_span (t : stref) : sspan := match t with STRef sp _ _ _ => sp end.

Lemma scoped_tail_written more pts : spells_tail more pts -> forall fuel acc rest, length pts < fuel -> ~ next_is TkDColon rest ->
  reads (p_scoped_tail fuel acc) (acc ++ concat (map (fun s => sep ++ s) more)) pts rest.
Proof.
  induction 1 as [|seg r pts l1 e1 l2 e2 _ IH]; intros [|f] acc rest Hf Hr le last dg; [lia| |lia|]; cbn [app p_scoped_tail].
  - rewrite (not_next_is _ _ Hr), app_nil_r. reflexivity.
  - len Hf. step. part IH. cbn [map concat]. rewrite <- !app_assoc. extents.
Qed.
(* a relative name, as an attribute's directive, a named type or a module's name *)
Lemma relative_identifier_written more pts : spells_tail more pts -> forall first l e fuel rest le last dg, length pts < fuel -> ~ next_is TkDColon rest ->
  p_relative_identifier fuel (mkps ((l, TkIdent first, e) :: pts ++ rest) le last dg) =
    POk_ (mksident (joined false first more) (mksspan l (last_end pts e))) (mkps rest le (last_end pts e) dg).
Proof. intros Hs first l e fuel rest le last dg Hf Hr. unfold p_relative_identifier. step. part (scoped_tail_written _ _ Hs). reflexivity. Qed.

(* pts spell the type reference t, and every location inside t is exactly the extent of the tokens it was read from *)
Inductive written : stref -> list ptok -> Prop :=
| w_plain d pts : written_d d pts -> written (STRef (mksspan (first_start pts L0) (last_end pts L0)) false [] d) pts
| w_opt d pts l e : written_d d pts -> written (STRef (mksspan (first_start pts L0) e) true [] d) (pts ++ [(l, TkQuestion, e)])
with written_d : stdef -> list ptok -> Prop :=
| wd_prim p l e : written_d (DPrim p) [(l, TkKw (KwPrim p), e)]
| wd_seq t pts l1 e1 l2 e2 l3 e3 : written t pts -> written_d (DSeq t) ((l1, TkKw KwSequence, e1) :: (l2, TkLt, e2) :: pts ++ [(l3, TkGt, e3)])
| wd_dict k v pk pv l1 e1 l2 e2 l3 e3 l4 e4 : written k pk -> written v pv ->
    written_d (DDict k v) ((l1, TkKw KwDictionary, e1) :: (l2, TkLt, e2) :: pk ++ (l3, TkComma, e3) :: pv ++ [(l4, TkGt, e4)])
| wd_res k v pk pv l1 e1 l2 e2 l3 e3 l4 e4 : written k pk -> written v pv ->
    written_d (DRes k v) ((l1, TkKw KwResult, e1) :: (l2, TkLt, e2) :: pk ++ (l3, TkComma, e3) :: pv ++ [(l4, TkGt, e4)])
| wd_rel first more pts l e : spells_tail more pts ->
    written_d (DNamed (mksident (joined false first more) (mksspan l (last_end pts e)))) ((l, TkIdent first, e) :: pts)
| wd_glob first more pts l0 e0 l e : spells_tail more pts ->
    written_d (DNamed (mksident (joined true first more) (mksspan l0 (last_end pts e)))) ((l0, TkDColon, e0) :: (l, TkIdent first, e) :: pts).

Lemma written_d_nonempty d pts : written_d d pts -> exists p r, pts = p :: r /\ token_eqb (snd (fst p)) TkLBracket = false.
Proof. destruct 1; eexists; eexists; split; reflexivity. Qed.
Lemma written_nonempty t pts : written t pts -> exists p r, pts = p :: r /\ token_eqb (snd (fst p)) TkLBracket = false.
Proof. destruct 1 as [d pts H|d pts l e H]; destruct (written_d_nonempty _ _ H) as (p & r & -> & Hp); eexists; eexists; split; try reflexivity; exact Hp. Qed.

(* C02: implicit enumerator values; the model wraps at the top of i128 only *)
Lemma implicit_value_first : next_enumerator_value None = 0%Z.
Proof. reflexivity. Qed.
Lemma implicit_value_next v : (v < I128_MAX)%Z -> next_enumerator_value (Some v) = (v + 1)%Z.
Proof. intros H. unfold next_enumerator_value. destruct (Z.eqb_spec v I128_MAX); [lia|reflexivity]. Qed.
(* C02: between brackets a keyword is an identifier *)
Lemma attribute_mode_words s : word_token true s = TkIdent s.
Proof. reflexivity. Qed.
Lemma plain_mode_words s : word_token false s = match lookup_kw Gen.Keywords.keyword_table s with Some k => TkKw k | None => TkIdent s end.
Proof. reflexivity. Qed.
(* C09: rows and columns count characters *)
Lemma adv_all_line l s : forallb (fun c => negb (c =? 10)%N) s = true -> adv_all l s = mkloc (l_row l) (l_col l + length s).
Proof.
  revert l. induction s as [|c r IH]; intros l H; cbn [adv_all fold_left length]; [destruct l; cbn; f_equal; lia|].
  cbn [forallb] in H. apply andb_true_iff in H as [Hc Hr]. apply negb_true_iff in Hc.
  change (fold_left adv r (adv l c)) with (adv_all (adv l c) r). rewrite IH by exact Hr. unfold adv. rewrite Hc. cbn [l_row l_col]. f_equal. lia.
Qed.
Lemma adv_newline l : adv l 10%N = mkloc (S (l_row l)) 1.
Proof. reflexivity. Qed.
