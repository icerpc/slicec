From SliceV Require Import Prep.PrepCore.
From Coq Require Import List Bool Arith Lia.
Import ListNotations.

Definition stopped (ls:list line) : Prop :=
  match ls with [] => True | LElif _ :: _ | LElse :: _ | LEndif :: _ => True | _ => False end.
Definition not_elif (ls:list line) : Prop := match ls with LElif _ :: _ => False | _ => True end.

(* what the machine has done where the parser gives up: it has stopped, or it is left inside a conditional *)
Definition bad (r:option mach) : Prop :=
  match r with None => True | Some (fs', _) => fs' <> [] end.

(* what the result of parse_nodes on ls says of m, the machine's run over ls from (fs, st) *)
Definition okN (ls:list line) (m:option mach) (fs:list frame) (st:state) (res:option (list node * list line)) : Prop :=
  match res with
  | Some (ns, rest) => length rest <= length ls /\ stopped rest /\
      m = steps (fs, if cur fs then proc_list ns st else st) rest
  | None => bad m
  end.
(* a frame that has not seen its #else *)
Definition fr (p a t : bool) : frame := {| parent := p; active := a; taken := t; selse := false |}.
(* the same for parse_elifs, under a frame without #else; the frame left on top is described by what an #else branch
   opened in it evaluates to, whatever that branch is *)
Definition okE (ls:list line) (m:option mach) (p t:bool) (fs:list frame) (st:state)
    (res:option (list (cond * list node) * list line)) : Prop :=
  match res with
  | Some (es, rest) => length rest <= length ls /\ (stopped ls -> stopped rest /\ not_elif rest) /\
      exists a' t' st', m = steps (fr p a' t' :: fs, st') rest /\
        forall els, (if p && negb t' then sel_elifs [] els st' else st') = (if p && negb t then sel_elifs es els st else st)
  | None => bad m
  end.
(* okN and okE for every input the fuel covers: shown together, since the two parsers call each other *)
Definition PN (fuel:nat) : Prop := forall ls fs st, length ls < fuel ->
  okN ls (steps (fs, st) ls) fs st (parse_nodes fuel ls).
Definition PE (fuel:nat) : Prop := forall ls p a t fs st, length ls < fuel ->
  okE ls (steps (fr p a t :: fs, st) ls) p t fs st (parse_elifs fuel ls).

Lemma okN_stop ls fs st : stopped ls -> okN ls (steps (fs, st) ls) fs st (Some ([], ls)).
Proof. intros St. split; [reflexivity|]. split; [exact St|]. destruct (cur fs); reflexivity. Qed.

Lemma okN_consn n ls r m fs st st' res :
  okN r m fs st' res -> length r <= length ls -> st' = (if cur fs then proc_node n st else st) ->
  okN ls m fs st (consn n res).
Proof.
  intros H L ->. destruct res as [[ns rest]|]; [|exact H]. destruct H as (L' & St & ->).
  split; [lia|]. split; [exact St|]. destruct (cur fs); reflexivity.
Qed.

Lemma okE_stop ls p a t fs st : (stopped ls -> not_elif ls) ->
  okE ls (steps (fr p a t :: fs, st) ls) p t fs st (Some ([], ls)).
Proof. intros NE. split; [reflexivity|]. split; [tauto|]. exists a, t, st. auto. Qed.

Lemma PN_PE : forall fuel, PN fuel /\ PE fuel.
Proof.
  induction fuel as [|k [IHN IHE]].
  { (* no input is shorter than 0 *) split; [intros ls fs st L|intros ls p a t fs st L]; inversion L. }
  assert (HE : PE (S k)).
  { intros [|l r] p a t fs st L; [apply okE_stop; auto|]. cbn [length] in L. apply Nat.succ_lt_mono in L.
    destruct l; cbn [parse_elifs]; try (apply okE_stop; cbn; tauto).
    cbn [steps step fr selse parent taken].
    set (v := p && negb t && c (fst st)). fold (fr p v (t || v)).
    pose proof (IHN r (fr p v (t || v) :: fs) st L) as H1. destruct (parse_nodes k r) as [[b r1]|]; [|exact H1].
    destruct H1 as (L1 & St1 & ->). cbn [cur fr active] in *.
    assert (L1' : length r1 < k) by lia.
    pose proof (IHE r1 p v (t || v) fs (if v then proc_list b st else st) L1') as H2.
    destruct (parse_elifs k r1) as [[es r2]|]; [|exact H2].
    destruct H2 as (L2 & St2 & a' & t' & st' & -> & Hels).
    split; [cbn [length]; lia|]. split; [intros _; exact (St2 St1)|].
    exists a', t', st'. split; [reflexivity|].
    intros els. rewrite Hels. subst v. cbn [sel_elifs].
    destruct p, t, (c (fst st)); reflexivity. }
  split; [|exact HE].
  intros [|l r] fs st L; [apply okN_stop; exact I|].
  destruct l as [n|s|s|c|c| | |]; cbn [parse_nodes].
  1-3: (* a source line, #define, #undef: one node *)
    cbn [steps step]; eapply okN_consn; [apply IHN, Nat.succ_lt_mono, L|apply Nat.le_succ_diag_r|reflexivity].
  2-4: (* #elif, #else, #endif end the list of nodes *) apply okN_stop; exact I.
  2: (* no directive: the parser gives up and the machine stops *) exact I.
  (* #if c moves the machine as #elif c does under a frame in which no branch was taken, and the parser reads both alike *)
  pose proof (HE (LElif c :: r) (cur fs) false false fs st L) as H2. cbn [steps step].
  cbn [parse_elifs steps step fr selse parent taken negb orb] in H2. rewrite andb_true_r in H2.
  destruct (parse_nodes k r) as [[ifb r1]|]; [|exact H2]. destruct (parse_elifs k r1) as [[es r2]|]; [|exact H2].
  destruct H2 as (L2 & St2 & a' & t' & st' & -> & Hels). destruct (St2 I) as [St2' NE2].
  assert (Hsel : forall els, (if cur fs && negb t' then sel_elifs [] els st' else st')
                 = if cur fs then proc_node (NCond c ifb es els) st else st).
  { intros els. rewrite Hels, proc_node_cond, andb_true_r. reflexivity. }
  (* r2 is stopped (St2') and does not begin with #elif (NE2): it is empty, or begins with #else or #endif *)
  destruct r2 as [|[] r3]; try contradiction.
  all: cbn [okN bad steps step length fr selse parent taken] in *.
  - (* the text ends inside the conditional, and the machine is left inside it *) discriminate.
  - (* #else *)
    set (fe := {| parent := cur fs; active := cur fs && negb t'; taken := true; selse := true |}).
    assert (L3 : length r3 < k) by lia.
    pose proof (IHN r3 (fe :: fs) st' L3) as H3. destruct (parse_nodes k r3) as [[eb r4']|]; [|exact H3].
    destruct H3 as (L3' & St3 & ->).
    (* r4' is stopped (St3): it is empty, or begins with #elif, #else or #endif *)
    destruct r4' as [|[] r4]; try contradiction.
    all: cbn [okN bad steps step length selse fe] in *.
    + (* the text ends in the #else branch *) discriminate.
    + (* #elif after #else: the machine stops as well *) exact I.
    + (* a second #else: likewise *) exact I.
    + eapply okN_consn; [apply IHN; lia|cbn [length]; lia|apply (Hsel (Some eb))].
  - (* #endif *)
    eapply okN_consn; [apply IHN; lia|cbn [length]; lia|].
    rewrite <- (Hsel None). cbn [sel_elifs]. destruct (cur fs && negb t'); reflexivity.
Qed.

Theorem prep_refines : forall ls S0, run_impl ls S0 = run_spec ls S0.
Proof.
  intros ls S0. unfold run_impl, run_spec. set (m := steps _ ls).
  assert (H : okN ls m [] (S0, []) (parse_nodes (S (length ls)) ls))
    by exact (proj1 (PN_PE _) ls [] (S0, []) (Nat.lt_succ_diag_r _)).
  clearbody m. destruct (parse_nodes _ ls) as [[ns rest]|]; cbn [okN] in H.
  - (* what is left over is a line that closes a branch, and none is open *)
    destruct H as (_ & St & ->). destruct rest as [|[] r]; try contradiction; reflexivity.
  - (* H: the machine has stopped, or is left inside a conditional; run_spec accepts neither *)
    destruct m as [[[|f fs] st]|]; [destruct (H eq_refl)|reflexivity..].
Qed.
Print Assumptions prep_refines.
