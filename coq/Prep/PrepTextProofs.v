From Coq Require Import List Bool Arith NArith Lia.
From SliceV Require Import Prep.PrepCore Prep.PrepCoreProofs Prep.PrepText.
Import ListNotations.
Open Scope nat_scope.

(* the tree evaluation of the implementation equals the line-by-line stack machine, on text *)
Theorem text_refines text S0 : run_text text S0 = run_text_spec text S0.
Proof. unfold run_text, run_text_spec. apply prep_refines. Qed.

(* unbalanced conditionals are rejected: an accepted file has as many #endif as #if *)
Definition is_if (l : line) : bool := match l with LIf _ => true | _ => false end.
Definition is_endif (l : line) : bool := match l with LEndif => true | _ => false end.
Definition count (f : line -> bool) (ls : list line) : nat := length (filter f ls).
Lemma step_depth fs st l fs' st' : step (fs, st) l = Some (fs', st') ->
  length fs' + (if is_endif l then 1 else 0) = length fs + (if is_if l then 1 else 0).
Proof.
  intros E. destruct l as [n|s|s|c|c| | |]; cbn [step] in E; cbn [is_if is_endif].
  - injection E as <- _. reflexivity.
  - injection E as <- _. reflexivity.
  - injection E as <- _. reflexivity.
  - (* #if opens a frame *) injection E as <- _. cbn [length]. lia.
  - (* #elif puts a frame in the place of the top one, in which no #else was seen *)
    destruct fs as [|f r]; [discriminate|]. destruct (selse f); [discriminate|]. injection E as <- _. reflexivity.
  - (* #else: likewise *)
    destruct fs as [|f r]; [discriminate|]. destruct (selse f); [discriminate|]. injection E as <- _. reflexivity.
  - (* #endif closes the top frame *) destruct fs as [|f r]; [discriminate|]. injection E as <- _. cbn [length]. lia.
  - discriminate.
Qed.
Lemma steps_depth ls : forall fs st fs' st', steps (fs, st) ls = Some (fs', st') ->
  length fs' + count is_endif ls = length fs + count is_if ls.
Proof.
  unfold count. induction ls as [|l ls IH]; intros fs st fs' st' H; cbn [steps] in H.
  - injection H as <- <-. reflexivity.
  - destruct (step (fs, st) l) as [[fs1 st1]|] eqn:E; [|discriminate].
    apply IH in H. apply step_depth in E. cbn [filter]. destruct (is_if l), (is_endif l); cbn [length]; lia.
Qed.
Theorem unbalanced_rejected ls S0 st : run_spec ls S0 = Some st -> count is_endif ls = count is_if ls.
Proof.
  unfold run_spec. destruct (steps ([], (S0, [])) ls) as [[fs st']|] eqn:E; [|discriminate].
  destruct fs; [|discriminate]. intros _. apply steps_depth in E. cbn in E. lia.
Qed.
Theorem bad_directive_rejected ls S0 : In LBad ls -> run_spec ls S0 = None.
Proof.
  intros Hin. unfold run_spec.
  assert (H : forall m, steps m ls = None).
  { induction ls as [|l ls IH]; [contradiction|]. intros m. cbn [steps].
    destruct Hin as [->|Hin]; [destruct m; reflexivity|].
    destruct (step m l); [apply IH; auto|reflexivity]. }
  rewrite H. reflexivity.
Qed.

(* nothing shifts: the location of the first non-blank character of line n, counted over the ORIGINAL text,
   is (n+1, indentation+1), whatever happens to the other lines *)
Definition no_nl (l : list N) : Prop := Forall (fun c => N.eqb c nl = false) l.
Lemma fold_advance_no_nl l r c : no_nl l -> fold_left advance l (r, c) = (r, c + length l).
Proof.
  intros H. revert c. induction H as [|x l Hx _ IH]; intros c; cbn [fold_left length].
  - f_equal. lia.
  - unfold advance at 2. rewrite Hx. cbn [fst snd]. rewrite IH. f_equal. lia.
Qed.
Lemma loc_after_join pre r : Forall no_nl pre -> fold_left advance (join_lines pre) (r, 1) = (r + length pre, 1).
Proof.
  intros H. revert r. induction H as [|l pre Hl _ IH]; intros r; cbn [join_lines flat_map length].
  - cbn. f_equal. lia.
  - fold (join_lines pre). rewrite <- app_assoc, fold_left_app, fold_advance_no_nl by exact Hl.
    cbn [app fold_left]. unfold advance at 2. rewrite N.eqb_refl. cbn [fst]. rewrite IH. f_equal. lia.
Qed.
Lemma loc_in_line pre p : Forall no_nl pre -> no_nl p -> loc_after (join_lines pre ++ p) = (S (length pre), S (length p)).
Proof. intros Hpre Hp. unfold loc_after. rewrite fold_left_app, loc_after_join, fold_advance_no_nl by assumption. reflexivity. Qed.
Lemma join_lines_prefix pre p w post : firstn (length (join_lines pre ++ p)) (join_lines (pre ++ (p ++ w) :: post)) = join_lines pre ++ p.
Proof.
  replace (join_lines (pre ++ (p ++ w) :: post)) with ((join_lines pre ++ p) ++ (w ++ [nl]) ++ join_lines post).
  - rewrite firstn_app, Nat.sub_diag, firstn_all. apply app_nil_r.
  - unfold join_lines. rewrite flat_map_app. cbn [flat_map]. rewrite <- !app_assoc. reflexivity.
Qed.
Lemma skip_ws_suffix l : exists p, l = p ++ skip_ws l /\ length p = indent_of l.
Proof.
  assert (H : exists p, l = p ++ skip_ws l).
  { induction l as [|c l [p IH]]; [exists []; reflexivity|]. cbn [skip_ws].
    destruct (is_inline_ws c); [exists (c :: p); cbn [app]; f_equal; exact IH|exists []; reflexivity]. }
  destruct H as [p Hp]. exists p. split; [exact Hp|].
  apply (f_equal (@length _)) in Hp. rewrite app_length in Hp. unfold indent_of. rewrite Hp. symmetry. apply Nat.add_sub.
Qed.
Theorem line_location_preserved pre l post : Forall no_nl pre -> no_nl l ->
  exists p, l = p ++ skip_ws l /\
    loc_after (join_lines pre ++ p) = line_start_loc (length pre) l /\
    (* which is the beginning of the whole file *)
    firstn (length (join_lines pre ++ p)) (join_lines (pre ++ l :: post)) = join_lines pre ++ p.
Proof.
  intros Hpre Hl. destruct (skip_ws_suffix l) as (p & Hp & Hlen). exists p. split; [exact Hp|].
  assert (Hnp : no_nl p) by (rewrite Hp in Hl; exact (proj1 (proj1 (Forall_app _ _ _) Hl))).
  split; [rewrite (loc_in_line pre p Hpre Hnp), Hlen; reflexivity|].
  pose proof (join_lines_prefix pre p (skip_ws l) post) as B. rewrite <- Hp in B. exact B.
Qed.

(* symbols never leak between files: every file is preprocessed from the command-line set *)
Definition run_files (texts : list (list N)) (S0 : symset) : list (option state) := map (fun t => run_text t S0) texts.
Theorem symbols_do_not_leak texts1 texts2 t S0 :
  nth_error (run_files (texts1 ++ t :: texts2) S0) (length texts1) = Some (run_text t S0).
Proof. unfold run_files. rewrite map_app. cbn [map]. rewrite nth_error_app2, map_length, Nat.sub_diag by (rewrite map_length; lia). reflexivity. Qed.

(* invariant of the line-by-line machine: each frame remembers whether its surroundings were selected when it was opened,
   and a branch is active only inside selected surroundings *)
Fixpoint wf_frames (fs : list frame) : Prop :=
  match fs with
  | [] => True
  | f :: r => parent f = cur r /\ (active f = true -> parent f = true) /\ wf_frames r
  end.
Lemma step_wf fs st l fs' st' : wf_frames fs -> step (fs, st) l = Some (fs', st') -> wf_frames fs'.
Proof.
  intros W E. destruct l as [n|s|s|c|c| | |]; cbn [step] in E.
  - injection E as <- _. exact W.
  - injection E as <- _. exact W.
  - injection E as <- _. exact W.
  - (* #if: the new frame is active only if its surroundings are *)
    injection E as <- _. cbn [wf_frames parent active]. split; [reflexivity|split; [|exact W]]. destruct (cur fs); cbn; auto.
  - (* #elif, #else: the new top frame has the parent of the old one, and is active only if that is *)
    destruct fs as [|f r]; [discriminate|]. destruct W as (Wp & Wa & Wr). destruct (selse f); [discriminate|].
    injection E as <- _. cbn [wf_frames parent active]. split; [exact Wp|split; [|exact Wr]]. destruct (parent f); cbn; auto.
  - destruct fs as [|f r]; [discriminate|]. destruct W as (Wp & Wa & Wr). destruct (selse f); [discriminate|].
    injection E as <- _. cbn [wf_frames parent active]. split; [exact Wp|split; [|exact Wr]]. destruct (parent f); cbn; auto.
  - (* #endif *) destruct fs as [|f r]; [discriminate|]. injection E as <- _. exact (proj2 (proj2 W)).
  - discriminate.
Qed.
Lemma steps_wf : forall ls fs st fs' st', wf_frames fs -> steps (fs, st) ls = Some (fs', st') -> wf_frames fs'.
Proof.
  induction ls as [|l ls IH]; intros fs st fs' st' W E; cbn [steps] in E.
  - inversion E; subst; exact W.
  - destruct (step (fs, st) l) as [[fs1 st1]|] eqn:S1; [|discriminate]. eapply IH; [|exact E]. eapply step_wf; eauto.
Qed.
Lemma wf_cur_all_active fs : wf_frames fs -> cur fs = true -> Forall (fun f => active f = true) fs.
Proof.
  induction fs as [|f r IH]; intros W C; [constructor|]. destruct W as (Wp & Wa & Wr). cbn [cur] in C.
  constructor; [exact C|]. apply IH; [exact Wr|]. rewrite <- Wp. exact (Wa C).
Qed.
(* if the current line is selected, every region around it is; hence a source line, #define or #undef inside an unselected region,
   at any depth, has no effect *)
Theorem selected_means_all_enclosing_selected ls S0 fs st :
  steps ([], (S0, [])) ls = Some (fs, st) -> cur fs = true -> Forall (fun f => active f = true) fs.
Proof. intros E C. apply wf_cur_all_active; [|exact C]. eapply steps_wf; [|exact E]. exact I. Qed.
Theorem inside_unselected_nothing_happens ls S0 fs st l :
  steps ([], (S0, [])) ls = Some (fs, st) -> Exists (fun f => active f = false) fs ->
  match l with LSrc _ | LDef _ | LUndef _ => step (fs, st) l = Some (fs, st) | _ => True end.
Proof.
  intros E X. assert (C : cur fs = false).
  { destruct (cur fs) eqn:C; [|reflexivity]. pose proof (selected_means_all_enclosing_selected _ _ _ _ E C) as F.
    apply Exists_exists in X as (f & Hin & Hf). rewrite Forall_forall in F. rewrite (F f Hin) in Hf. discriminate. }
  destruct l; auto; cbn [step]; rewrite C; reflexivity.
Qed.
(* a branch is entered at most once per conditional: once a branch was taken, no later #elif or #else of it is active *)
Theorem taken_blocks_later_branches f r st l fs' st' : taken f = true -> step (f :: r, st) l = Some (fs', st') ->
  match l with LElif _ | LElse => cur fs' = false | _ => True end.
Proof.
  intros T E. destruct l as [n|s|s|c|c| | |]; try exact I; cbn [step] in E.
  - (* #elif: the new frame is active only if no branch was taken *)
    destruct (selse f); [discriminate|]. injection E as <- _. cbn [cur active]. rewrite T, andb_false_r. reflexivity.
  - (* #else: likewise *)
    destruct (selse f); [discriminate|]. injection E as <- _. cbn [cur active]. rewrite T. apply andb_false_r.
Qed.
