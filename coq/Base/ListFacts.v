(* List facts that proof files of several directories share. *)
From Coq Require Import List Bool.
Import ListNotations.

(* When a list is empty, by the shape it is built in. *)
Lemma app_nil_iff {A} (a b : list A) : a ++ b = [] <-> a = [] /\ b = [].
Proof. split; [apply app_eq_nil|intros [-> ->]; reflexivity]. Qed.
Lemma app_nil_and {A} (a b : list A) (P Q : Prop) : (a = [] <-> P) -> (b = [] <-> Q) -> (a ++ b = [] <-> P /\ Q).
Proof. intros <- <-. apply app_nil_iff. Qed.
Lemma map_nil_iff {A B} (f : A -> B) l : map f l = [] <-> l = [].
Proof. destruct l; split; (discriminate || reflexivity). Qed.
Lemma unless_nil_iff {A} (b : bool) (c : A) : (if b then [] else [c]) = [] <-> b = true.
Proof. destruct b; split; (discriminate || reflexivity). Qed.
Lemma filter_nil_iff {A} (p : A -> bool) l : filter p l = [] <-> Forall (fun x => p x = false) l.
Proof.
  induction l as [|x l IH]; cbn [filter]; [split; [constructor|reflexivity]|]. rewrite Forall_cons_iff, <- IH.
  destruct (p x); split; [discriminate|intros [[=] _]|split; [reflexivity|assumption]|intros [_ H]; exact H].
Qed.
Lemma flat_map_nil_iff {A B} (f : A -> list B) l : flat_map f l = [] <-> Forall (fun x => f x = []) l.
Proof. rewrite flat_map_concat_map, concat_nil_Forall, Forall_map. reflexivity. Qed.
(* an earlier phase that reports anything hides the later one *)
Lemma gate_nil_iff {A} (l r : list A) : match l with [] => r | a :: t => a :: t end = [] <-> l = [] /\ r = [].
Proof. destruct l; split; [intros ->; split; reflexivity|intros [_ H]; exact H|discriminate|intros [[=] _]]. Qed.

Lemma Forall_iff {A} (P Q : A -> Prop) l : (forall x, In x l -> (P x <-> Q x)) -> Forall P l <-> Forall Q l.
Proof. intros H. rewrite !Forall_forall. split; intros F x Hx; apply (H x Hx), F, Hx. Qed.
Lemma forall_In_iff {A} (P Q : A -> Prop) l : (forall x, In x l -> (P x <-> Q x)) -> (forall x, In x l -> P x) <-> (forall x, In x l -> Q x).
Proof. intros H. rewrite <- !Forall_forall. apply Forall_iff, H. Qed.
Lemma flat_map_nil_Forall {A B} (f : A -> list B) (P : A -> Prop) l :
  (forall x, In x l -> (f x = [] <-> P x)) -> (flat_map f l = [] <-> Forall P l).
Proof. rewrite flat_map_nil_iff. apply Forall_iff. Qed.

Lemma existsb_eqb_In {A} (eqb : A -> A -> bool) : (forall a b, eqb a b = true <-> a = b) ->
  forall x l, existsb (eqb x) l = true <-> In x l.
Proof.
  intros E x l. rewrite existsb_exists. split; [intros (y & Hy & <-%E); exact Hy|]. intros H. exists x. split; [exact H|apply E; reflexivity].
Qed.


(* f is the structural equality on lists over eqb, given by its unfolding: one proof for every such Fixpoint of the model *)
Lemma eqb_list_iff {A} (eqb : A -> A -> bool) (f : list A -> list A -> bool) :
  (forall x y, eqb x y = true <-> x = y) ->
  (forall a b, f a b = match a, b with [] , [] => true | x :: a', y :: b' => eqb x y && f a' b' | _, _ => false end) ->
  forall a b, f a b = true <-> a = b.
Proof.
  intros E U. induction a as [|x a IH]; intros [|y b]; rewrite U; try (split; discriminate); [tauto|].
  rewrite andb_true_iff, E, IH. split; [intros [-> ->]; reflexivity|intros [= -> ->]; auto].
Qed.

Lemma NoDup_app_iff {A} (a b : list A) : NoDup (a ++ b) <-> NoDup a /\ NoDup b /\ forall x, In x a -> In x b -> False.
Proof.
  induction a as [|x r IH]; cbn [app]; [split; [intros H; repeat split; [constructor|exact H|intros x []]|intros (_ & H & _); exact H]|].
  rewrite !NoDup_cons_iff, IH, in_app_iff. split.
  - intros (Hx & Hr & Hb & Hd). repeat split; auto. intros y [<-|Hy] Hy'; [apply Hx; right; exact Hy'|exact (Hd y Hy Hy')].
  - intros ((Hx & Hr) & Hb & Hd). repeat split; auto.
    + intros [Hi|Hi]; [exact (Hx Hi)|exact (Hd x (or_introl eq_refl) Hi)].
    + intros y Hy. apply Hd. right. exact Hy.
Qed.

Lemma nodup_cons_seen {A} (x : A) r seen :
  ~ In x seen /\ NoDup r /\ (forall y, In y r -> ~ In y (x :: seen)) <-> NoDup (x :: r) /\ forall y, In y (x :: r) -> ~ In y seen.
Proof.
  rewrite NoDup_cons_iff. cbn [In]. firstorder congruence.
Qed.
(* A pass [F seen l] that walks along l and reports every element it has seen before is silent iff nothing repeats. *)
Section NoRepeat.
  Context {A C} (F : list A -> list A -> list C).
  Hypothesis Fnil : forall seen, F seen [] = [].
  Hypothesis Fcons : forall seen x r, F seen (x :: r) = [] <-> ~ In x seen /\ F (x :: seen) r = [].
  Lemma no_repeat_iff : forall l seen, F seen l = [] <-> NoDup l /\ forall x, In x l -> ~ In x seen.
  Proof.
    induction l as [|x r IH]; intros seen; [rewrite Fnil; split; [intros _; split; [constructor|intros x []]|reflexivity]|].
    rewrite Fcons, IH. apply nodup_cons_seen.
  Qed.
  Lemma no_repeat_iff0 l : F [] l = [] <-> NoDup l.
  Proof. rewrite no_repeat_iff. split; [intros [H _]; exact H|intros H; split; [exact H|intros x _ []]]. Qed.
End NoRepeat.
