(* UTF-8 encoder / strict validator round trip. *)
From Coq Require Import List NArith Lia ZifyBool Bool.
From SliceV Require Import Base.Bytes Base.Utf8.
Import ListNotations.
Open Scope N_scope.

Lemma encode_cp_len c : length (encode_cp c) = len_utf8 c.
Proof.
  unfold encode_cp, len_utf8. destruct (c <? 128); [reflexivity|]. destruct (c <? 2048); [reflexivity|].
  destruct (c <? 65536); reflexivity.
Qed.
Lemma encode_cp_nonempty c : encode_cp c <> [].
Proof.
  intros E. pose proof (encode_cp_len c) as H. rewrite E in H. unfold len_utf8 in H.
  destruct (c <? 128); [discriminate|]. destruct (c <? 2048); [discriminate|]. destruct (c <? 65536); discriminate.
Qed.

Lemma inr_true lo hi b : lo <= b <= hi -> inr lo hi b = true.
Proof. unfold inr. lia. Qed.
Lemma inr_add_false lo hi base a : hi < base -> inr lo hi (base + a) = false.
Proof. unfold inr. lia. Qed.
Lemma ltb_add_false k base a : k <= base -> (base + a <? k) = false.
Proof. intros H. apply N.ltb_ge. lia. Qed.
Lemma cont_digit d : d < 64 -> cont (128 + d) = true.
Proof. unfold cont. lia. Qed.
Lemma N_add_sub_l a b : a + b - a = b.
Proof. rewrite N.add_comm. apply N.add_sub. Qed.
(* the range decode_cp allows the first continuation byte: from 128 + lo only after the lead byte base, up to 128 + hi only after base + k *)
Lemma first_cont base k lo hi a d : d < 64 -> (a = 0 -> lo <= d) -> (a = k -> d <= hi) ->
  (if base + a =? base then 128 + lo else 128) <= 128 + d <= (if base + a =? base + k then 128 + hi else 191).
Proof.
  intros Hd Hlo Hhi. split.
  - destruct (N.eqb_spec (base + a) base) as [E|_]; [|apply N.le_add_r].
    apply N.add_le_mono_l, Hlo, (N.add_cancel_l _ _ base). rewrite N.add_0_r. exact E.
  - destruct (N.eqb_spec (base + a) (base + k)) as [E|_]; [apply N.add_le_mono_l, Hhi, (N.add_cancel_l _ _ base), E|].
    change 191 with (128 + 63). apply N.add_le_mono_l, N.lt_succ_r, Hd.
Qed.

(* Lead byte `base + a`, continuation bytes `128 + d`.  The side conditions on the first continuation digit are the ranges of
   table 3-7 of the Unicode standard: no overlong forms (a = 0), no surrogates (3 bytes, a = 13), nothing above U+10FFFF
   (4 bytes, a = 4). *)
Lemma decode_cp1 c r : c < 128 -> decode_cp (c :: r) = Some (c, r).
Proof. intros H. cbn [decode_cp]. apply N.ltb_lt in H. rewrite H. reflexivity. Qed.
Lemma decode_cp2 a d r : 2 <= a < 32 -> d < 64 ->
  decode_cp (192 + a :: 128 + d :: r) = Some (a * 64 + d, r).
Proof.
  intros Ha Hd. cbn [decode_cp]. rewrite ltb_add_false by discriminate. rewrite inr_true by lia.
  rewrite cont_digit, !N_add_sub_l by assumption. reflexivity.
Qed.
Lemma decode_cp3 a d1 d2 r : a < 16 -> d1 < 64 -> d2 < 64 -> (a = 0 -> 32 <= d1) -> (a = 13 -> d1 <= 31) ->
  decode_cp (224 + a :: 128 + d1 :: 128 + d2 :: r) = Some (a * 4096 + d1 * 64 + d2, r).
Proof.
  intros Ha H1 H2 Hlo Hhi. cbn [decode_cp]. rewrite ltb_add_false by discriminate. rewrite inr_add_false by reflexivity.
  rewrite inr_true by lia. rewrite inr_true by exact (first_cont 224 13 32 31 a d1 H1 Hlo Hhi).
  rewrite cont_digit, !N_add_sub_l by assumption. reflexivity.
Qed.
Lemma decode_cp4 a d1 d2 d3 r : a < 5 -> d1 < 64 -> d2 < 64 -> d3 < 64 -> (a = 0 -> 16 <= d1) -> (a = 4 -> d1 <= 15) ->
  decode_cp (240 + a :: 128 + d1 :: 128 + d2 :: 128 + d3 :: r) = Some (a * 262144 + d1 * 4096 + d2 * 64 + d3, r).
Proof.
  intros Ha H1 H2 H3 Hlo Hhi. cbn [decode_cp]. rewrite ltb_add_false by discriminate. rewrite !inr_add_false by reflexivity.
  rewrite inr_true by lia. rewrite inr_true by exact (first_cont 240 4 16 15 a d1 H1 Hlo Hhi).
  rewrite !cont_digit, !N_add_sub_l by assumption. reflexivity.
Qed.

Lemma digit64 x : x = 64 * (x / 64) + x mod 64 /\ x mod 64 < 64.
Proof. split; [apply N.div_mod'|apply N.mod_lt; discriminate]. Qed.

(* The encoder's bytes carry the base-64 digits of c; is_scalar supplies the surrogate gap and the upper limit. *)
Lemma decode_encode_cp c r : is_scalar c = true -> decode_cp (encode_cp c ++ r) = Some (c, r).
Proof.
  unfold is_scalar, encode_cp. intros Hs.
  (* name the digits d0, d1, d2 and the quotients, and go on with variables in place of the divisions of c *)
  pose proof (digit64 c) as [E0 L0]. pose proof (digit64 (c / 64)) as [E1 L1]. pose proof (digit64 (c / 64 / 64)) as [E2 L2].
  rewrite N.div_div in E1, E2, L2 by discriminate. change (64 * 64) with 4096 in *.
  rewrite N.div_div in E2 by discriminate. change (4096 * 64) with 262144 in E2.
  revert E0 L0 E1 L1 E2 L2.
  generalize (c mod 64) (c / 64) (c / 64 mod 64) (c / 4096) (c / 4096 mod 64) (c / 262144).
  intros d0 q0 d1 q1 d2 q2 E0 L0 E1 L1 E2 L2.
  destruct (N.ltb_spec c 128). { apply decode_cp1. assumption. }
  destruct (N.ltb_spec c 2048).
  { assert (2 <= q0 < 32 /\ q0 * 64 + d0 = c) as [? <-] by lia. apply decode_cp2; assumption. }
  destruct (N.ltb_spec c 65536).
  { assert (q1 < 16 /\ (q1 = 0 -> 32 <= d1) /\ (q1 = 13 -> d1 <= 31) /\ q1 * 4096 + d1 * 64 + d0 = c) as (? & ? & ? & <-) by lia.
    apply decode_cp3; assumption. }
  assert (q2 < 5 /\ (q2 = 0 -> 16 <= d2) /\ (q2 = 4 -> d2 <= 15) /\ q2 * 262144 + d2 * 4096 + d1 * 64 + d0 = c) as (? & ? & ? & <-) by lia.
  apply decode_cp4; assumption.
Qed.
Lemma decode_fuel_encode s fuel : Forall (fun c => is_scalar c = true) s -> (length (utf8_encode s) <= fuel)%nat ->
  utf8_decode_fuel fuel (utf8_encode s) = Some s.
Proof.
  intros H. revert fuel. induction H as [|c s Hc Hs IH]; intros fuel Hf.
  - destruct fuel; reflexivity.
  - cbn [utf8_encode flat_map] in *. fold (utf8_encode s) in *.
    pose proof (decode_encode_cp c (utf8_encode s) Hc) as D.
    destruct (encode_cp c) as [|b bs] eqn:E; [now apply encode_cp_nonempty in E|].
    rewrite app_length in Hf. destruct fuel as [|f]; [inversion Hf|].
    cbn [utf8_decode_fuel app length] in *. rewrite D, IH by lia. reflexivity.
Qed.

Theorem utf8_decode_encode s : Forall (fun c => is_scalar c = true) s -> utf8_decode (utf8_encode s) = Some s.
Proof. intros H. unfold utf8_decode. apply decode_fuel_encode; auto. Qed.
Theorem utf8_encode_valid s : Forall (fun c => is_scalar c = true) s -> utf8_valid (utf8_encode s) = true.
Proof. intros H. unfold utf8_valid. rewrite utf8_decode_encode by exact H. reflexivity. Qed.
