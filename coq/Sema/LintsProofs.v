From Coq Require Import List Bool Arith NArith Lia.
From SliceV Require Import Base.ListFacts Prep.PrepCore Sema.Lints.
Import ListNotations.

Lemma sym_eqb_eq a b : sym_eqb a b = true <-> a = b.
Proof. revert a b. apply (eqb_list_iff N.eqb _ N.eqb_eq). intros [|] [|]; reflexivity. Qed.
Lemma existsb_iff {A} (p : A -> bool) (P : A -> Prop) l : (forall x, p x = true <-> P x) -> existsb p l = true <-> exists x, In x l /\ P x.
Proof. intros E. rewrite existsb_exists. split; intros (x & Hx & H); exists x; split; try exact Hx; apply E, H. Qed.
Lemma allowed_by_iff ids code : allowed_by ids code = true <-> exists a, In a ids /\ names code a.
Proof. apply existsb_iff. intros a. unfold names, str_eqb. rewrite orb_true_iff, !sym_eqb_eq. reflexivity. Qed.
Lemma allowed_by_cli_iff ids code : allowed_by_cli ids code = true <-> exists a, In a ids /\ (str_eqb_ci a s_All = true \/ str_eqb_ci a code = true).
Proof. apply existsb_iff. intros a. apply orb_true_iff. Qed.

Lemma parent_of_some es j p : parent_of es j = Some p <-> exists e, nth_error es j = Some e /\ ent_parent e = Some p.
Proof. unfold parent_of. destruct (nth_error es j) as [e|]; split; [intros H; exists e; auto|intros (e' & [= <-] & H); exact H|discriminate|intros (e & [=] & _)]. Qed.
Lemma encloses_parent es a j p : parent_of es j = Some p -> encloses es a p -> encloses es a j.
Proof. intros H. apply parent_of_some in H as (e & Hn & Hp). exact (enc_parent es j e p a Hn Hp). Qed.
Lemma wf_parent es j p : wf_ents es -> parent_of es j = Some p -> p < j.
Proof. intros WF H. apply parent_of_some in H as (e & Hn & Hp). exact (WF j e p Hn Hp). Qed.
Lemma encloses_trans es a b c : encloses es a b -> encloses es b c -> encloses es a c.
Proof. intros Hab Hbc. induction Hbc as [id|id e p b' Hn Hp Hb IH]; [exact Hab|]. eapply enc_parent; eauto. Qed.

Lemma all_allows_iff es : wf_ents es -> forall fuel id a, id < fuel ->
  (In a (all_allows fuel es id) <-> exists anc e, encloses es anc id /\ nth_error es anc = Some e /\ In a (ent_allows e)).
Proof.
  intros WF fuel id a Hlt. split.
  - clear Hlt. revert id. induction fuel as [|f IH]; intros id; cbn [all_allows]; [intros []|].
    destruct (nth_error es id) as [e|] eqn:En; [|intros []]. rewrite in_app_iff. intros [H|H]; [exists id, e; split; [constructor|auto]|].
    destruct (ent_parent e) as [p|] eqn:Ep; [|destruct H]. apply IH in H as (anc & e' & Henc & H). exists anc, e'. split; [exact (enc_parent es id e p anc En Ep Henc)|exact H].
  - intros (anc & e & Henc & Hn & Ha). revert fuel Hlt. induction Henc as [id|id e' p anc En Ep _ IH]; intros [|f] Hlt; [lia| |lia|]; cbn [all_allows].
    + rewrite Hn. apply in_or_app. left. exact Ha.
    + rewrite En, Ep. apply in_or_app. right. apply IH; [exact Hn|]. specialize (WF id e' p En Ep). lia.
Qed.
Lemma scope_allowed_iff es s code : wf_ents es -> s < length es ->
  allowed_by (all_allows (S (length es)) es s) code = true <->
  exists anc e a, encloses es anc s /\ nth_error es anc = Some e /\ In a (ent_allows e) /\ names code a.
Proof.
  intros WF Hs. apply Nat.lt_lt_succ_r in Hs. rewrite allowed_by_iff. split.
  - intros (a & Ha & Hn). apply (all_allows_iff es WF _ _ _ Hs) in Ha as (anc & e & Henc & He & Ha). exists anc, e, a. auto.
  - intros (anc & e & a & Henc & He & Ha & Hn). exists a. split; [|exact Hn]. apply (all_allows_iff es WF _ _ _ Hs). exists anc, e. auto.
Qed.

Lemma level_cases (s : bool) (S : Prop) : (s = true <-> S) ->
  ((if s then LAllowed else LWarning) = LAllowed <-> S) /\ ((if s then LAllowed else LWarning) = LWarning <-> ~ S).
Proof. intros E. rewrite <- E. destruct s; split; split; try (discriminate || reflexivity). intros []; reflexivity. Qed.
(* C13: a lint is Allowed exactly when it is silenced (command line, the file's allow attribute, or an allow attribute on the element
   concerned or a definition enclosing it); otherwise it is a Warning *)
Theorem level_iff c d code : wf_ents (c_ents c) -> d_lint d = Some code ->
  (forall s, d_scope d = Some s -> s < length (c_ents c)) ->
  (level_of c d = LAllowed <-> silenced c d code) /\ (level_of c d = LWarning <-> ~ silenced c d code).
Proof.
  intros WF Hl Hs. unfold level_of, silenced. rewrite Hl. apply level_cases.
  rewrite <- orb_assoc, !orb_true_iff. apply Morphisms_Prop.or_iff_morphism; [apply allowed_by_cli_iff|apply Morphisms_Prop.or_iff_morphism].
  - destruct (d_file d) as [f|]; [rewrite allowed_by_iff|]; split;
      [intros (a & H); exists f, a; auto|intros (f' & a & [= <-] & H); exists a; exact H|discriminate|intros (f & a & [=] & _)].
  - destruct (d_scope d) as [s|]; [rewrite (scope_allowed_iff _ _ _ WF (Hs s eq_refl))|]; split;
      [intros (anc & e & a & H); exists s, anc, e, a; auto|intros (s' & anc & e & a & [= <-] & H); exists anc, e, a; exact H|discriminate|intros (s & anc & e & a & [=] & _)].
Qed.
Theorem errors_never_silenced c d : d_lint d = None -> level_of c d = LError.
Proof. intros H. unfold level_of. rewrite H. reflexivity. Qed.
Theorem lints_never_errors c d code : d_lint d = Some code -> level_of c d <> LError.
Proof. intros H. unfold level_of. rewrite H. destruct (_ || _ || _); discriminate. Qed.
Lemma is_error_iff c d : match level_of c d with LError => true | _ => false end = match d_lint d with None => true | Some _ => false end.
Proof. unfold level_of. destruct (d_lint d); [destruct (_ || _ || _)|]; reflexivity. Qed.
Theorem error_total_independent c c' ds : snd (totals c ds) = snd (totals c' ds).
Proof. unfold totals. cbn [snd]. f_equal. apply filter_ext. intros d. rewrite !is_error_iff. reflexivity. Qed.

(* non-interference: changing the allow attributes of an element that neither is the element concerned nor encloses it
   changes nothing about this diagnostic *)
Definition set_allows (es : list ent) (id : nat) (a : list str) : list ent :=
  map (fun ie => if Nat.eqb (fst ie) id then {| ent_allows := a; ent_parent := ent_parent (snd ie) |} else snd ie) (combine (seq 0 (length es)) es).
Lemma nth_combine_seq {A} (l : list A) : forall off k, nth_error (combine (seq off (length l)) l) k = option_map (pair (off + k)) (nth_error l k).
Proof.
  induction l as [|x l IH]; intros off [|k]; cbn [length seq combine nth_error option_map]; [reflexivity..|rewrite Nat.add_0_r; reflexivity|].
  rewrite IH, Nat.add_succ_comm. reflexivity.
Qed.
Lemma nth_set_allows es id a k : nth_error (set_allows es id a) k =
  option_map (fun e => if Nat.eqb k id then {| ent_allows := a; ent_parent := ent_parent e |} else e) (nth_error es k).
Proof. unfold set_allows. rewrite nth_error_map, nth_combine_seq. destruct (nth_error es k); reflexivity. Qed.
Lemma all_allows_set_allows es id a : forall fuel s, ~ encloses es id s -> all_allows fuel (set_allows es id a) s = all_allows fuel es s.
Proof.
  induction fuel as [|f IH]; intros s Hs; cbn [all_allows]; [reflexivity|]. rewrite nth_set_allows.
  destruct (nth_error es s) as [e|] eqn:En; cbn [option_map]; [|reflexivity].
  destruct (Nat.eqb_spec s id) as [->|_]; [destruct Hs; constructor|]. f_equal.
  destruct (ent_parent e) as [p|] eqn:Ep; [|reflexivity]. apply IH. intros H. exact (Hs (enc_parent es s e p id En Ep H)).
Qed.
Theorem allow_noninterference c d id a : wf_ents (c_ents c) ->
  (forall s, d_scope d = Some s -> s < length (c_ents c) /\ ~ encloses (c_ents c) id s) ->
  level_of {| c_cli := c_cli c; c_file_allows := c_file_allows c; c_ents := set_allows (c_ents c) id a |} d = level_of c d.
Proof.
  intros _ Hs. unfold level_of. cbn [c_cli c_file_allows c_ents]. destruct (d_lint d) as [code|]; [|reflexivity].
  destruct (d_scope d) as [s|]; [|reflexivity]. rewrite all_allows_set_allows by apply (Hs s eq_refl).
  unfold set_allows. rewrite map_length, combine_length, seq_length, Nat.min_id. reflexivity.
Qed.

Lemma find_some_child es ps id s j : find (is_child_at es ps id s) (seq 0 (length es)) = Some j -> parent_of es j = Some id /\ j < length es.
Proof.
  intros H. apply find_some in H as [Hin H]. apply in_seq in Hin. split; [|apply Hin]. unfold is_child_at in H.
  destruct (parent_of es j) as [p|]; [|discriminate]. destruct (span_of_ent ps j); [|discriminate]. apply andb_true_iff in H as [H _]. apply Nat.eqb_eq in H. congruence.
Qed.
Lemma descend_below es ps : forall fuel id s, encloses es id (descend fuel es ps id s).
Proof.
  induction fuel as [|f IH]; intros id s; cbn [descend]; [constructor|].
  destruct (find (is_child_at es ps id s) (seq 0 (length es))) as [j|] eqn:E; [|constructor].
  apply find_some_child in E as [Hp _]. eapply encloses_trans; [|apply IH]. apply (encloses_parent _ _ _ _ Hp). constructor.
Qed.
Lemma descend_in_range es ps : forall fuel id s, id < length es -> descend fuel es ps id s < length es.
Proof.
  induction fuel as [|f IH]; intros id s H; cbn [descend]; [exact H|].
  destruct (find (is_child_at es ps id s) (seq 0 (length es))) as [j|] eqn:E; [|exact H]. apply IH. apply find_some_child in E. tauto.
Qed.
(* going down from an element to the member that contains the lint keeps every suppression that holds at the element *)
Theorem closer_look_keeps_suppressions es ps id s code : wf_ents es -> id < length es ->
  allowed_by (all_allows (S (length es)) es id) code = true -> allowed_by (all_allows (S (length es)) es (descend (S (length es)) es ps id s)) code = true.
Proof.
  intros WF Hid H. apply scope_allowed_iff in H as (anc & e & a & Henc & H); [|exact WF|exact Hid].
  apply scope_allowed_iff; [exact WF|apply descend_in_range, Hid|]. exists anc, e, a. split; [|exact H]. eapply encloses_trans; [exact Henc|apply descend_below].
Qed.
Lemma concerned_start es ps scope s : exists start, concerned es ps scope s = descend (S (length es)) es ps start s /\
  (start = scope \/ exists pl, nth_error ps scope = Some pl /\ lp_param pl = true /\ within s (lp_span pl) = false /\ parent_of es scope = Some start).
Proof.
  unfold concerned. destruct (nth_error ps scope) as [pl|]; [|eauto]. destruct (parent_of es scope) as [p|]; [|eauto].
  destruct (lp_param pl && negb (within s (lp_span pl))) eqn:E; [|eauto].
  apply andb_true_iff in E as [E1 E2]. apply negb_true_iff in E2. exists p. split; [reflexivity|]. right. exists pl. auto.
Qed.
Theorem concerned_is_below es ps scope s :
  encloses es scope (concerned es ps scope s) \/
  (exists pl p, nth_error ps scope = Some pl /\ lp_param pl = true /\ within s (lp_span pl) = false /\ parent_of es scope = Some p /\ encloses es p (concerned es ps scope s)).
Proof.
  destruct (concerned_start es ps scope s) as (start & -> & [->|(pl & H1 & H2 & H3 & H4)]); [left|right; exists pl, start; repeat (split; [assumption|])]; apply descend_below.
Qed.
(* op([allow(Deprecated)] p: Old) -> (p: bool, q: bool): the table answers "M::I::op::p" with the return member (entity 3).  A lint
   inside the parameter p (entity 2) concerns the parameter, whose allow then counts; one inside the return member concerns that
   member; and from the operation (entity 1) the parameter is found as well *)
Example twin_parameter :
  let es := [{| ent_allows := []; ent_parent := None |}; {| ent_allows := []; ent_parent := Some 0 |};
             {| ent_allows := [[68]%N]; ent_parent := Some 1 |}; {| ent_allows := []; ent_parent := Some 1 |}; {| ent_allows := []; ent_parent := Some 1 |}] in
  let sp a b c d := {| ls_lo := (a, b); ls_hi := (c, d) |} in
  let ps := [{| lp_span := sp 3 1 5 2; lp_param := false; lp_file := 0; lp_under := None |}; {| lp_span := sp 4 5 4 60; lp_param := false; lp_file := 0; lp_under := None |};
             {| lp_span := sp 4 31 4 37; lp_param := true; lp_file := 0; lp_under := None |}; {| lp_span := sp 4 43 4 50; lp_param := true; lp_file := 0; lp_under := None |}; {| lp_span := sp 4 52 4 59; lp_param := true; lp_file := 0; lp_under := None |}] in
  concerned es ps 3 (sp 4 34 4 37) = 2 /\ concerned es ps 3 (sp 4 46 4 50) = 3 /\ concerned es ps 1 (sp 4 34 4 37) = 2.
Proof. vm_compute. repeat split. Qed.

(* the element found is innermost: no member of it contains the lint.  Parents come before their children (wf_ents), so going
   inwards takes fewer steps than there are entities and the fuel given by `concerned` is enough. *)
Lemma descend_innermost es ps s : wf_ents es -> forall fuel id, length es - id < fuel ->
  find (is_child_at es ps (descend fuel es ps id s) s) (seq 0 (length es)) = None.
Proof.
  intros WF. induction fuel as [|f IH]; intros id Hf; [lia|]. cbn [descend].
  destruct (find (is_child_at es ps id s) (seq 0 (length es))) as [j|] eqn:E; [|exact E].
  apply find_some_child in E as [Hp Hj]. apply IH. pose proof (wf_parent _ _ _ WF Hp). lia.
Qed.
Theorem concerned_is_innermost es ps scope s : wf_ents es -> scope < length es ->
  find (is_child_at es ps (concerned es ps scope s) s) (seq 0 (length es)) = None.
Proof.
  intros WF _. destruct (concerned_start es ps scope s) as (start & -> & _). apply descend_innermost; [exact WF|lia].
Qed.
