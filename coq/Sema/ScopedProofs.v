(* Proofs about the lookup table over several files (Sema/Scoped.v): the redefinition pass is silent exactly when scoped
   identifiers are unique in the sense below; that is the same for every order of the files; then every sc_lookup gives
   the same answer for every order of the files, and finds every entity under its scoped identifier (C15, C03). *)
From Coq Require Import List Bool Arith Permutation.
From SliceV Require Import Base.ListFacts Sema.Scoped.
Import ListNotations.

Lemma NoDup_flat_map_intro {A B C} (h : A -> C) (g : A -> list B) l : NoDup (map h l) -> (forall a, In a l -> NoDup (g a)) ->
  (forall a b x, In x (g a) -> In x (g b) -> h a = h b) -> NoDup (flat_map g l).
Proof.
  intros ND Hp Hd. induction l as [|a r IH]; cbn [map flat_map] in *; [constructor|]. apply NoDup_cons_iff in ND as [Ha Hr].
  apply NoDup_app_iff. split; [apply Hp; left; reflexivity|]. split; [apply IH; [exact Hr|intros b Hb; apply Hp; right; exact Hb]|].
  intros x Hx Hx'. apply in_flat_map in Hx' as (b & Hb & Hx'). apply Ha. rewrite (Hd a b x Hx Hx'). apply in_map, Hb.
Qed.
Lemma nodup_flat_map_part {A B} (g : A -> list B) l a : NoDup (flat_map g l) -> In a l -> NoDup (g a).
Proof.
  induction l as [|c r IH]; cbn [flat_map]; intros ND Ha; [destruct Ha|]. apply NoDup_app_iff in ND as (Hc & Hr & _).
  destruct Ha as [<-|Ha]; [exact Hc|exact (IH Hr Ha)].
Qed.
Lemma nodup_flat_map_same {A B} (g : A -> list B) : forall l a b x, NoDup (flat_map g l) -> In a l -> In b l -> In x (g a) -> In x (g b) -> a = b.
Proof.
  induction l as [|c r IH]; cbn [flat_map]; intros a b x ND Ha Hb Hxa Hxb; [destruct Ha|]. apply NoDup_app_iff in ND as (_ & Hr & Hd).
  assert (In_r : forall z, In z r -> In x (g z) -> In x (flat_map g r)) by (intros z Hz Hxz; apply in_flat_map; exists z; split; assumption).
  destruct Ha as [<-|Ha], Hb as [<-|Hb]; [reflexivity|destruct (Hd x Hxa (In_r b Hb Hxb))|destruct (Hd x Hxb (In_r a Ha Hxa))|exact (IH a b x Hr Ha Hb Hxa Hxb)].
Qed.

Lemma dups_nil {A} (eq_dec : forall a b : A, {a = b} + {a <> b}) l : dups eq_dec [] l = [] <-> NoDup l.
Proof. apply (no_repeat_iff0 (dups eq_dec)); [reflexivity|]. intros seen x r. cbn [dups]. destruct (in_dec eq_dec x seen); intuition congruence. Qed.

Definition contents_ok (d : scdef) : Prop :=
  match d with
  | ScStruct _ fs => NoDup fs
  | ScEnum _ ens => NoDup (map fst ens) /\ Forall (fun e => NoDup (snd e)) ens
  | ScIface _ ops => NoDup (map sco_name ops) /\ Forall (fun o => NoDup (sco_params o) /\ NoDup (sco_rets o)) ops
  | ScOther _ => True
  end.
Definition names_ok (fs : list sfile) : Prop :=
  (forall k, In k (all_entity_keys fs) -> ~ In k (all_module_keys fs)) /\ NoDup (all_def_keys fs) /\ Forall contents_ok (all_defs fs).

Lemma content_dups_iff d : content_dups d = [] <-> contents_ok d.
Proof.
  destruct d as [n fs|n ens|n ops|n]; cbn [content_dups contents_ok].
  - apply dups_nil.
  - apply app_nil_and; [apply dups_nil|]. apply flat_map_nil_Forall. intros e _. apply dups_nil.
  - apply app_nil_and; [apply dups_nil|]. apply flat_map_nil_Forall. intros o _. apply app_nil_and; apply dups_nil.
  - tauto.
Qed.
Lemma filter_in_dec_nil (m l : list skey) : filter (fun k => if in_dec skey_eq_dec k m then true else false) l = [] <-> forall k, In k l -> ~ In k m.
Proof.
  rewrite filter_nil_iff, Forall_forall.
  split; intros H k Hk; specialize (H k Hk); destruct (in_dec skey_eq_dec k m); [discriminate|assumption|contradiction|reflexivity].
Qed.
Theorem redef_report_silent_iff fs : redef_report fs = [] <-> names_ok fs.
Proof.
  unfold redef_report, names_ok. apply app_nil_and; [rewrite map_nil_iff; apply filter_in_dec_nil|].
  apply app_nil_and; [rewrite map_nil_iff; apply dups_nil|]. apply flat_map_nil_Forall. intros d _. apply content_dups_iff.
Qed.

Theorem names_ok_perm fs fs' : Permutation fs fs' -> names_ok fs -> names_ok fs'.
Proof.
  intros HP (A & B & C). unfold names_ok, all_entity_keys, all_module_keys, all_def_keys, all_defs in *.
  pose proof (fun g : sfile -> list skey => Permutation_flat_map g (Permutation_sym HP)) as back. repeat split.
  - intros k Hk Hm. exact (A k (Permutation_in _ (back _) Hk) (Permutation_in _ (back _) Hm)).
  - eapply Permutation_NoDup; [|exact B]. apply Permutation_flat_map. exact HP.
  - eapply Permutation_Forall; [|exact C]. apply Permutation_flat_map. exact HP.
Qed.
Theorem redef_verdict_order_independent fs fs' : Permutation fs fs' -> (redef_report fs = [] <-> redef_report fs' = []).
Proof. intros HP. rewrite !redef_report_silent_iff. split; apply names_ok_perm; [exact HP|symmetry; exact HP]. Qed.

(* what follows the definition's name in its keys: [member; sub-member], [member] or nothing *)
Definition tails (d : scdef) : list (list sname) :=
  flat_map (fun ms => map (fun x => [fst ms; x]) (snd ms)) (members d) ++ map (fun ms => [fst ms]) (members d) ++ [[]].
Lemma keys_as_tails mp d : entity_keys_of_def mp d = map (fun s => mp ++ scdef_name d :: s) (tails d).
Proof.
  unfold entity_keys_of_def, sub_keys, member_keys, tails. rewrite !map_app, map_map. f_equal.
  induction (members d) as [|ms l IH]; cbn [flat_map]; [reflexivity|]. rewrite map_app, map_map, IH. reflexivity.
Qed.
Lemma app_inj_tail_list {A} (mp a b : list A) : mp ++ a = mp ++ b -> a = b.
Proof. apply app_inv_head. Qed.
Lemma tails_prefix d u x v : In (u ++ x :: v) (tails d) -> In u (tails d).
Proof.
  unfold tails. destruct u as [|a u].
  { (* the empty tail is always there *) intros _. apply in_or_app. right. apply in_or_app. right. left. reflexivity. }
  intros H. apply in_app_or in H as [H|H]; [|apply in_app_or in H as [H|[H|[]]]].
  - (* [fst ms; y] = a :: u ++ x :: v: then u is empty and a is the member *)
    apply in_flat_map in H as (ms & Hm & H). apply in_map_iff in H as (y & E & _).
    destruct u as [|b u]; [|destruct u; discriminate E]. injection E as <- _.
    apply in_or_app. right. apply in_or_app. left. exact (in_map (fun ms => [fst ms]) _ _ Hm).
  - (* [fst ms] is too short for it *) apply in_map_iff in H as (ms & E & _). destruct u; discriminate E.
  - (* and so is [] *) discriminate H.
Qed.
Lemma mp_not_own_entity mp d : ~ In mp (entity_keys_of_def mp d).
Proof. rewrite keys_as_tails, in_map_iff. intros (s & E & _). discriminate (app_inv_head mp _ [] (eq_trans E (eq_sym (app_nil_r mp)))). Qed.

(* the key mp ++ scdef_name d :: s of d read as (mp ++ l) ++ n :: s' *)
Lemma key_under mp d s l n s' : In s (tails d) -> scdef_name d :: s = l ++ n :: s' ->
  (l = [] /\ n = scdef_name d) \/ In (mp ++ l) (entity_keys_of_def mp d).
Proof.
  intros S E. destruct l as [|a l]; injection E as <- E; [left; split; reflexivity|right].
  rewrite keys_as_tails. apply (in_map (fun s => mp ++ scdef_name d :: s)), (tails_prefix d l n s'). rewrite <- E. exact S.
Qed.
Lemma same_key_entities mp1 d1 mp2 d2 k : In k (entity_keys_of_def mp1 d1) -> In k (entity_keys_of_def mp2 d2) ->
  mp1 ++ [scdef_name d1] = mp2 ++ [scdef_name d2] \/ In mp2 (entity_keys_of_def mp1 d1) \/ In mp1 (entity_keys_of_def mp2 d2).
Proof.
  intros H1 H2. rewrite keys_as_tails in H1, H2. apply in_map_iff in H1 as (s1 & <- & S1). apply in_map_iff in H2 as (s2 & E & S2).
  apply app_eq_app in E as (l & [[-> E]|[-> E]]).
  - destruct (key_under mp1 d1 s1 l (scdef_name d2) s2 S1 E) as [[-> En]|X]; [left; rewrite app_nil_r, En; reflexivity|right; left; exact X].
  - destruct (key_under mp2 d2 s2 l (scdef_name d1) s1 S2 E) as [[-> En]|X]; [left; rewrite app_nil_r, En; reflexivity|right; right; exact X].
Qed.

Lemma in_entity_keys f k : In k (entity_keys f) <-> exists mp d, sf_module f = Some mp /\ In d (sf_defs f) /\ In k (entity_keys_of_def mp d).
Proof.
  unfold entity_keys. destruct (sf_module f) as [mp|]; [|split; [intros []|intros (? & ? & [=] & _)]].
  rewrite in_flat_map. split; [intros (d & Hd & Hk); exists mp, d; auto|intros (? & d & [= <-] & Hd & Hk); exists d; auto].
Qed.
Lemma entity_not_module fs f1 f2 k : names_ok fs -> In f1 fs -> In f2 fs -> In k (entity_keys f1) -> sf_module f2 <> Some k.
Proof.
  intros (A & _) H1 H2 K M. apply (A k); apply in_flat_map; [exists f1|exists f2]; split; [exact H1|exact K|exact H2|].
  unfold module_keys. rewrite M. left. reflexivity.
Qed.

Lemma flat_map_indexed_length {A B C} (g : nat -> A -> list B) (f : A -> list C) : (forall j a, length (g j a) = length (f a)) ->
  forall (l : list A) (i : nat), length (flat_map (fun ia => g (fst ia) (snd ia)) (combine (seq i (length l)) l)) = length (flat_map f l).
Proof.
  intros H. induction l as [|a r IH]; intros i; [reflexivity|]. cbn [length seq combine flat_map fst snd]. rewrite !app_length, H, IH. reflexivity.
Qed.
Lemma paths_match_keys_def mp di d : length (entity_paths_of_def di d) = length (entity_keys_of_def mp d).
Proof.
  unfold entity_paths_of_def, entity_keys_of_def, sub_keys, member_keys, indexed. rewrite !app_length, !map_length, seq_length. f_equal.
  apply (flat_map_indexed_length (fun mi ms => map (fun xi => [di; mi; xi]) (seq 0 (length (snd ms))))). intros j ms. rewrite !map_length. apply seq_length.
Qed.
Lemma paths_match_keys f mp : sf_module f = Some mp -> length (entity_paths f) = length (entity_keys f).
Proof.
  intros Hm. unfold entity_paths, entity_keys, indexed. rewrite Hm.
  apply (flat_map_indexed_length entity_paths_of_def). intros j d. apply paths_match_keys_def.
Qed.
Lemma every_entity_entered f k : In k (entity_keys f) -> exists p, In (k, ScEntity (sf_id f) p) (file_entries f).
Proof.
  intros Hk. unfold file_entries. destruct (sf_module f) as [mp|] eqn:Em; [|unfold entity_keys in Hk; rewrite Em in Hk; destruct Hk].
  pose proof (paths_match_keys f mp Em) as L. apply (In_nth _ _ []) in Hk as (n & Hn & <-).
  exists (nth n (entity_paths f) []). apply in_or_app. left.
  rewrite <- (map_nth (ScEntity (sf_id f))), <- combine_nth by (rewrite map_length; symmetry; exact L).
  apply nth_In. rewrite combine_length, map_length, L, Nat.min_id. exact Hn.
Qed.

Lemma in_combine_fst {A B} (l : list A) (l' : list B) a b : In (a, b) (combine l l') -> In a l.
Proof. apply in_combine_l. Qed.
Lemma file_entry_kinds f k v : In (k, v) (file_entries f) -> (v = ScModule k /\ sf_module f = Some k) \/ In k (entity_keys f).
Proof.
  unfold file_entries. destruct (sf_module f) as [mp|] eqn:Em; [|intros []]. intros H. apply in_app_or in H as [H|[H|[]]].
  - right. exact (in_combine_l _ _ _ _ H).
  - injection H as <- <-. left. split; reflexivity.
Qed.

Lemma same_key_entries fs f1 f2 k v w : names_ok fs -> In f1 fs -> In f2 fs -> In (k, v) (file_entries f1) -> In (k, w) (file_entries f2) ->
  (v = ScModule k /\ w = ScModule k) \/ f1 = f2.
Proof.
  intros Hok H1 H2 E1 E2. apply file_entry_kinds in E1. apply file_entry_kinds in E2.
  destruct E1 as [[-> M1]|K1], E2 as [[-> M2]|K2].
  - left. split; reflexivity.
  - destruct (entity_not_module fs f2 f1 k Hok H2 H1 K2 M1).
  - destruct (entity_not_module fs f1 f2 k Hok H1 H2 K1 M2).
  - right. apply in_entity_keys in K1 as (mp1 & d1 & M1 & D1 & K1). apply in_entity_keys in K2 as (mp2 & d2 & M2 & D2 & K2).
    destruct (same_key_entities mp1 d1 mp2 d2 k K1 K2) as [Eq|[X|X]].
    + apply (nodup_flat_map_same def_keys fs f1 f2 (def_key mp1 d1) (proj1 (proj2 Hok)) H1 H2); unfold def_keys, def_key; [rewrite M1|rewrite M2, Eq].
      * exact (in_map (def_key mp1) _ d1 D1).
      * exact (in_map (def_key mp2) _ d2 D2).
    + destruct (entity_not_module fs f1 f2 mp2 Hok H1 H2); [apply in_entity_keys; exists mp1, d1; auto|exact M2].
    + destruct (entity_not_module fs f2 f1 mp1 Hok H2 H1); [apply in_entity_keys; exists mp2, d2; auto|exact M1].
Qed.

Lemma lookup_app k a b : sc_lookup k (a ++ b) = match sc_lookup k b with Some w => Some w | None => sc_lookup k a end.
Proof.
  induction a as [|[k' v] r IH]; cbn [app sc_lookup]; [destruct (sc_lookup k b); reflexivity|]. rewrite IH. destruct (sc_lookup k b); reflexivity.
Qed.
Lemma lookup_in k t v : sc_lookup k t = Some v -> In (k, v) t.
Proof.
  induction t as [|[k' w] r IH]; cbn [sc_lookup]; [discriminate|]. destruct (sc_lookup k r) as [u|].
  - intros [= <-]. right. apply IH. reflexivity.
  - destruct (skey_eq_dec k' k) as [->|]; [|discriminate]. intros [= <-]. left. reflexivity.
Qed.
Lemma lookup_unique k t v : In (k, v) t -> (forall w, In (k, w) t -> w = v) -> sc_lookup k t = Some v.
Proof.
  induction t as [|[k' u] r IH]; intros Hin Hu; [destruct Hin|]. cbn [sc_lookup].
  destruct (sc_lookup k r) as [w|] eqn:E.
  - apply lookup_in in E. f_equal. apply Hu. right. exact E.
  - destruct Hin as [Heq|Hin].
    + injection Heq as -> ->. destruct (skey_eq_dec k k); [reflexivity|congruence].
    + discriminate (IH Hin (fun w Hw => Hu w (or_intror Hw))).
Qed.
Lemma lookup_flat_map_perm {A} (g : A -> list (skey * scent)) k l l' : Permutation l l' ->
  (forall a b v w, In a l -> In b l -> sc_lookup k (g a) = Some v -> sc_lookup k (g b) = Some w -> v = w) ->
  sc_lookup k (flat_map g l) = sc_lookup k (flat_map g l').
Proof.
  induction 1 as [|x l l' HP IH|x y l|l l' l'' HP1 IH1 HP2 IH2]; intros Ag; cbn [flat_map]; [reflexivity| | |].
  - (* the same head *) rewrite !lookup_app, IH; [reflexivity|]. intros a b v w Ha Hb. apply Ag; right; assumption.
  - (* two heads swapped: if both have the key they agree *) rewrite !lookup_app. destruct (sc_lookup k (flat_map g l)); [reflexivity|].
    destruct (sc_lookup k (g x)) as [v|] eqn:Ex, (sc_lookup k (g y)) as [w|] eqn:Ey; try reflexivity.
    f_equal. apply (Ag x y); [right; left; reflexivity|left; reflexivity|exact Ex|exact Ey].
  - (* transitivity *) rewrite IH1, IH2; [reflexivity| |exact Ag]. intros a b v w Ha Hb. apply Ag; apply (Permutation_in _ (Permutation_sym HP1)); assumption.
Qed.

(* C15: once the redefinition pass is silent, every lookup gives the same answer for every order of the files *)
Theorem lookup_order_independent fs fs' k : redef_report fs = [] -> Permutation fs fs' -> sc_lookup k (sc_table fs) = sc_lookup k (sc_table fs').
Proof.
  intros Hok HP. apply redef_report_silent_iff in Hok. apply lookup_flat_map_perm; [exact HP|]. intros f1 f2 v w H1 H2 E1 E2.
  destruct (same_key_entries fs f1 f2 k v w Hok H1 H2 (lookup_in _ _ _ E1) (lookup_in _ _ _ E2)) as [[-> ->]|<-]; [reflexivity|congruence].
Qed.

(* "module A::I::op" next to an operation op of interface I in module A (A = 1, I = 2, op = 3) is reported in either order of the files *)
Definition f_iface : sfile := {| sf_id := 0; sf_module := Some [1]; sf_defs := [ScIface 2 [{| sco_name := 3; sco_params := [4]; sco_rets := [] |}]; ScStruct 5 [6]] |}.
Definition f_module : sfile := {| sf_id := 1; sf_module := Some [1; 2; 3]; sf_defs := [ScOther 7] |}.
Example member_module_collision_reported : redef_report [f_iface; f_module] = [3] /\ redef_report [f_module; f_iface] = [3].
Proof. split; vm_compute; reflexivity. Qed.
(* and rightly so: what A::I::op leads to depends on the order of the files *)
Example member_module_collision_order_dependent :
  sc_lookup [1; 2; 3] (sc_table [f_iface; f_module]) = Some (ScModule [1; 2; 3]) /\ sc_lookup [1; 2; 3] (sc_table [f_module; f_iface]) = Some (ScEntity 0 [0; 0]).
Proof. split; vm_compute; reflexivity. Qed.
(* a program the pass accepts, with a module re-opened in two files, nested modules and a parameter and return member of one sname *)
Definition f_a : sfile := {| sf_id := 0; sf_module := Some [1]; sf_defs := [ScIface 2 [{| sco_name := 3; sco_params := [4; 5]; sco_rets := [4] |}]; ScEnum 6 [(7, [8]); (9, [])]] |}.
Definition f_b : sfile := {| sf_id := 1; sf_module := Some [1]; sf_defs := [ScStruct 10 [3; 4]] |}.
Definition f_c : sfile := {| sf_id := 2; sf_module := Some [1; 11]; sf_defs := [ScOther 2; ScStruct 6 [7]] |}.
Example accepted_program : redef_report [f_a; f_b; f_c] = [] /\ sc_lookup [1] (sc_table [f_c; f_a; f_b]) = Some (ScModule [1]) /\
  sc_lookup [1; 2; 3; 4] (sc_table [f_a; f_b; f_c]) = Some (ScEntity 0 [0; 0; 2]) /\ sc_lookup [1; 2; 3; 4] (sc_table [f_c; f_b; f_a]) = Some (ScEntity 0 [0; 0; 2]).
Proof. repeat split; vm_compute; reflexivity. Qed.

(* what the redefinition pass does not ask for: a parameter and a return member of one operation may share a name (they share an
   AST scope; Ast::find_node documents that these "may not be unique"); where they do not, every key names one entity *)
Definition ops_ok (d : scdef) : Prop :=
  match d with ScIface _ ops => Forall (fun o => NoDup (sco_params o ++ sco_rets o)) ops | _ => True end.

Lemma members_nodup d : contents_ok d -> ops_ok d -> NoDup (map fst (members d)) /\ Forall (fun ms => NoDup (snd ms)) (members d).
Proof.
  destruct d as [n fs|n ens|n ops|n]; cbn [contents_ok ops_ok members]; intros H O; rewrite ?map_map, ?Forall_map; cbn [fst snd].
  - rewrite map_id. split; [exact H|]. apply Forall_forall. intros f _. constructor.
  - exact H.
  - split; [exact (proj1 H)|exact O].
  - split; constructor.
Qed.

(* the three groups of tails differ in length; within a group, member names are distinct, and so are the sub-members of one member *)
Lemma tails_nodup d : contents_ok d -> ops_ok d -> NoDup (tails d).
Proof.
  intros C O. destruct (members_nodup d C O) as [NF NS]. rewrite Forall_forall in NS. unfold tails. apply NoDup_app_iff. split; [|split; [apply NoDup_app_iff; split; [|split]|]].
  - apply (NoDup_flat_map_intro fst); [exact NF| |].
    + intros ms Hm. apply FinFun.Injective_map_NoDup; [intros x y [= ->]; reflexivity|exact (NS ms Hm)].
    + intros a b k Hx Hy. apply in_map_iff in Hx as (x & <- & _). apply in_map_iff in Hy as (y & [= E _] & _). symmetry. exact E.
  - rewrite <- (map_map fst (fun m => [m])). apply FinFun.Injective_map_NoDup; [intros x y [= ->]; reflexivity|exact NF].
  - repeat constructor. intros [].
  - intros k H [<-|[]]. apply in_map_iff in H as (? & [=] & _).
  - intros k H1 H2. apply in_flat_map in H1 as (ms & _ & H1). apply in_map_iff in H1 as (x & <- & _).
    apply in_app_or in H2 as [H2|[[=]|[]]]. apply in_map_iff in H2 as (? & [=] & _).
Qed.
Lemma entity_keys_of_def_nodup mp d : contents_ok d -> ops_ok d -> NoDup (entity_keys_of_def mp d).
Proof. intros C O. rewrite keys_as_tails. apply FinFun.Injective_map_NoDup; [intros s s' [= E]%app_inv_head; exact E|apply tails_nodup; assumption]. Qed.
Lemma entity_keys_nodup fs f : names_ok fs -> Forall ops_ok (all_defs fs) -> In f fs -> NoDup (entity_keys f).
Proof.
  intros (_ & B & C) O Hf. pose proof (nodup_flat_map_part def_keys fs f B Hf) as ND. rewrite Forall_forall in C, O.
  unfold entity_keys, def_keys in *. destruct (sf_module f) as [mp|] eqn:Em; [|constructor].
  assert (D : forall d, In d (sf_defs f) -> In d (all_defs fs)) by (intros d Hd; apply in_flat_map; exists f; rewrite Em; split; assumption).
  apply (NoDup_flat_map_intro (def_key mp)); [exact ND|intros d Hd; apply entity_keys_of_def_nodup; auto|].
  intros d d' k K K'. destruct (same_key_entities mp d mp d' k K K') as [E|[X|X]]; [exact E|destruct (mp_not_own_entity _ _ X)..].
Qed.

Lemma combine_keys_nodup {A B} (l : list A) (l' : list B) : NoDup l -> NoDup (map fst (combine l l')).
Proof.
  intros ND. revert l'. induction ND as [|x r Hx _ IH]; intros [|y r']; cbn [combine map fst]; constructor; [|apply IH].
  intros H. apply in_map_iff in H as ([a b] & <- & H). exact (Hx (in_combine_l _ _ _ _ H)).
Qed.
Lemma nodup_fst_fun {A B} (l : list (A * B)) a b b' : NoDup (map fst l) -> In (a, b) l -> In (a, b') l -> b = b'.
Proof.
  induction l as [|[x y] r IH]; cbn [map fst]; intros ND H1 H2; [destruct H1|]. apply NoDup_cons_iff in ND as [Hx Hr].
  destruct H1 as [E1|H1], H2 as [E2|H2]; [congruence| | |exact (IH Hr H1 H2)]; destruct Hx.
  - injection E1 as -> _. exact (in_map fst _ _ H2).
  - injection E2 as -> _. exact (in_map fst _ _ H1).
Qed.
(* within one file no key is entered twice: its entity keys are distinct and none is its module's *)
Lemma file_keys_nodup fs f : names_ok fs -> Forall ops_ok (all_defs fs) -> In f fs -> NoDup (map fst (file_entries f)).
Proof.
  intros Hok Hops Hf. unfold file_entries. destruct (sf_module f) as [mp|] eqn:Em; [|constructor].
  rewrite map_app. change (map fst [(mp, ScModule mp)]) with [mp]. apply NoDup_app_iff. split; [apply combine_keys_nodup, (entity_keys_nodup fs f Hok Hops Hf)|]. split; [repeat constructor; intros []|].
  intros k Hk [<-|[]]. apply in_map_iff in Hk as ([k' v] & <- & Hk). exact (entity_not_module fs f f k' Hok Hf Hf (in_combine_l _ _ _ _ Hk) Em).
Qed.

(* C03: after a silent redefinition pass every entity entered in the table is what its own scoped identifier leads to, in every
   order of the files (parameters and return members too, under ops_ok) *)
Theorem entity_found_by_its_scoped_identifier fs k f p :
  redef_report fs = [] -> Forall ops_ok (all_defs fs) -> In f fs -> In (k, ScEntity (sf_id f) p) (file_entries f) ->
  sc_lookup k (sc_table fs) = Some (ScEntity (sf_id f) p).
Proof.
  intros Hok Hops Hf Hin. apply redef_report_silent_iff in Hok.
  apply lookup_unique; [apply in_flat_map; exists f; split; assumption|].
  intros w Hw. apply in_flat_map in Hw as (f2 & Hf2 & Hw).
  destruct (same_key_entries fs f f2 k _ w Hok Hf Hf2 Hin Hw) as [[Em _]|<-]; [discriminate Em|].
  exact (nodup_fst_fun _ _ _ _ (file_keys_nodup fs f Hok Hops Hf) Hw Hin).
Qed.
Corollary entities_retrievable fs f k : redef_report fs = [] -> Forall ops_ok (all_defs fs) -> In f fs -> In k (entity_keys f) ->
  exists p, sc_lookup k (sc_table fs) = Some (ScEntity (sf_id f) p).
Proof.
  intros Hok Hops Hf Hk. destruct (every_entity_entered f k Hk) as [p Hp]. exists p. apply entity_found_by_its_scoped_identifier; assumption.
Qed.

(* what the files enter comes after the primitives' entries, so it wins over them *)
Theorem lookup_with_primitives_order_independent prims fs fs' k :
  redef_report fs = [] -> Permutation fs fs' -> sc_lookup k (sc_table_with prims fs) = sc_lookup k (sc_table_with prims fs').
Proof. intros Hok HP. unfold sc_table_with. rewrite !lookup_app. rewrite (lookup_order_independent fs fs' k Hok HP). reflexivity. Qed.
Theorem primitive_found_unless_redeclared prims fs p : NoDup prims -> In p prims -> sc_lookup [p] (sc_table fs) = None ->
  sc_lookup [p] (sc_table_with prims fs) = Some (ScPrimitive p).
Proof.
  intros ND Hin Hnone. unfold sc_table_with. rewrite lookup_app, Hnone. apply lookup_unique.
  - apply in_map_iff. exists p. split; [reflexivity|exact Hin].
  - intros w Hw. apply in_map_iff in Hw as (q & [= <- <-] & _). reflexivity.
Qed.
(* `module \int32` takes the place of the primitive int32 in the table, in every order of the files (name 100 stands for int32) *)
Example module_named_like_a_primitive :
  let m := {| sf_id := 0; sf_module := Some [100]; sf_defs := [] |} in
  let u := {| sf_id := 1; sf_module := Some [1]; sf_defs := [ScStruct 2 [3]] |} in
  redef_report [m; u] = [] /\ sc_lookup [100] (sc_table_with [100; 101] [m; u]) = Some (ScModule [100]) /\
  sc_lookup [100] (sc_table_with [100; 101] [u; m]) = Some (ScModule [100]) /\ sc_lookup [101] (sc_table_with [100; 101] [u; m]) = Some (ScPrimitive 101).
Proof. repeat split; vm_compute; reflexivity. Qed.
