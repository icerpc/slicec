From Coq Require Import List.
From SliceV Require Import Sema.Visitor.
Import ListNotations.

Lemma filter_flat_map {A B} (p : B -> bool) (f : A -> list B) l : filter p (flat_map f l) = flat_map (fun x => filter p (f x)) l.
Proof. rewrite !flat_map_concat_map, <- concat_filter_map, map_map. reflexivity. Qed.
Lemma flat_map_flat_map {A B C} (f : A -> list B) (g : B -> list C) l : flat_map g (flat_map f l) = flat_map (fun x => flat_map g (f x)) l.
Proof. induction l as [|x l IH]; cbn [flat_map]; [|rewrite flat_map_app, IH]; reflexivity. Qed.

Lemma tref_ind' (P : tref -> Prop) : (forall l ns, Forall P ns -> P (TR l ns)) -> forall t, P t.
Proof.
  intros H. fix IH 1. intros [l ns]. apply H. induction ns as [|n ns IHns]; constructor; [apply IH|exact IHns].
Qed.

Lemma flat_map_preorder {A} (tr : A -> tree) (v : A -> list event) cs :
  (forall c, In c cs -> v c = preorder (tr c)) -> flat_map v cs = flat_map preorder (map tr cs).
Proof. intros H. rewrite !flat_map_concat_map, map_map. f_equal. apply map_ext_in, H. Qed.
Lemma visit_tref_preorder t : visit_tref t = preorder (tree_of_tref t).
Proof. induction t as [l ns IH] using tref_ind'. cbn [visit_tref tree_of_tref preorder]. f_equal. apply flat_map_preorder, Forall_forall, IH. Qed.
Lemma owner_preorder e t : e :: visit_tref t = preorder (Node e [tree_of_tref t]).
Proof. rewrite visit_tref_preorder. cbn. rewrite app_nil_r. reflexivity. Qed.
Theorem visit_def_preorder d : visit_def d = preorder (tree_of_def d).
Proof.
  destruct d as [id fs|id ops|id es|id|id t]; cbn [visit_def tree_of_def preorder]; [f_equal; apply flat_map_preorder..|reflexivity|apply owner_preorder].
  - intros f _. apply owner_preorder.
  - intros o _. unfold visit_op. cbn [preorder]. rewrite <- flat_map_app, <- map_app. f_equal.
    apply flat_map_preorder. intros f _. apply owner_preorder.
  - intros e _. unfold visit_enumerator. cbn [preorder]. f_equal. apply flat_map_preorder. intros f _. apply owner_preorder.
Qed.
(* C20: the walk is the pre-order of the file's tree *)
Theorem visit_eq_spec f : visit_file f = preorder (tree_of_file f).
Proof.
  unfold visit_file, tree_of_file. cbn [preorder]. rewrite flat_map_app. do 2 f_equal.
  - destruct (vfile_module f); reflexivity.
  - apply flat_map_preorder. intros d _. apply visit_def_preorder.
Qed.

(* an unpatched reference is presented but not descended into *)
Theorem unpatched_not_descended l : visit_tref (TR l []) = [ETypeRef l].
Proof. reflexivity. Qed.
Theorem nested_types_follow l ns : visit_tref (TR l ns) = ETypeRef l :: flat_map visit_tref ns.
Proof. reflexivity. Qed.

(* the (owner, type) pairs a file declares *)
Definition owned_field (f : vfield) : event * tref := (EField (vf_id f), vf_ty f).
Definition owned_param (f : vfield) : event * tref := (EParam (vf_id f), vf_ty f).
Definition owned_def (d : vdef) : list (event * tref) :=
  match d with
  | VStruct _ fs => map owned_field fs
  | VIface _ ops => flat_map (fun o => map owned_param (vo_params o) ++ map owned_param (vo_rets o)) ops
  | VEnum _ es => flat_map (fun e => map owned_field (snd e)) es
  | VCustom _ => []
  | VAlias id t => [(EAlias id, t)]
  end.
Definition owned (f : vfile) : list (event * tref) := flat_map owned_def (vfile_defs f).
Definition contains_block (l : list event) (o : event) (t : tref) : Prop := exists pre post, l = pre ++ o :: visit_tref t ++ post.
Definition is_tref (e : event) : bool := match e with ETypeRef _ => true | _ => false end.

Lemma entity_tref t : filter is_entity (visit_tref t) = [].
Proof.
  induction t as [l ns IH] using tref_ind'. cbn [visit_tref filter is_entity]. rewrite filter_flat_map.
  induction IH as [|n ns Hn _ IHns]; cbn [flat_map]; [|rewrite Hn]; auto.
Qed.
Lemma tref_only t : filter is_tref (visit_tref t) = visit_tref t.
Proof.
  induction t as [l ns IH] using tref_ind'. cbn [visit_tref filter is_tref]. rewrite filter_flat_map. f_equal.
  induction IH as [|n ns Hn _ IHns]; cbn [flat_map]; congruence.
Qed.

Lemma block_here o t : contains_block (o :: visit_tref t) o t.
Proof. exists [], []. rewrite app_nil_r. reflexivity. Qed.
Lemma block_app_l a l o t : contains_block l o t -> contains_block (a ++ l) o t.
Proof. intros (pre & post & ->). exists (a ++ pre), post. apply app_assoc. Qed.
Lemma block_app_r b l o t : contains_block l o t -> contains_block (l ++ b) o t.
Proof. intros (pre & post & ->). exists pre, (post ++ b). rewrite <- !app_assoc, <- app_comm_cons, <- app_assoc. reflexivity. Qed.
Lemma block_in_flat_map {A} {g : A -> list event} {l x} o t : In x l -> contains_block (g x) o t -> contains_block (flat_map g l) o t.
Proof. intros Hin Hb. apply in_split in Hin as (l1 & l2 & ->). rewrite flat_map_app. apply block_app_l, block_app_r, Hb. Qed.

(* members (fields, parameters, return members): each presents itself, then walks its type *)
Section Members.
Variables (A : Type) (own : A -> event) (ty : A -> tref).
Local Notation visit := (fun x => own x :: visit_tref (ty x)).
Local Notation owned_by := (fun x => (own x, ty x)).
Lemma entity_members l : (forall x, is_entity (own x) = true) -> filter is_entity (flat_map visit l) = map own l.
Proof. intros E. induction l as [|x l IH]; cbn [flat_map map filter app]; [|rewrite E, filter_app, entity_tref, IH]; reflexivity. Qed.
Lemma tref_members l : (forall x, is_tref (own x) = false) -> filter is_tref (flat_map visit l) = flat_map (fun p => visit_tref (snd p)) (map owned_by l).
Proof. intros E. induction l as [|x l IH]; cbn [flat_map map filter app]; [|rewrite E, filter_app, tref_only, IH]; reflexivity. Qed.
Lemma block_members l o t : In (o, t) (map owned_by l) -> contains_block (flat_map visit l) o t.
Proof. intros Hin. apply in_map_iff in Hin as (x & [= <- <-] & Hx). apply (block_in_flat_map _ _ Hx), block_here. Qed.
End Members.

(* the entities presented are exactly those the file declares, in source order: none skipped, none extra *)
Theorem entities_exactly_once f : filter is_entity (visit_file f) = declared f.
Proof.
  unfold visit_file, declared. cbn [filter is_entity]. rewrite filter_app, filter_flat_map. f_equal.
  - destruct (vfile_module f); reflexivity.
  - apply flat_map_ext. intros [id fs|id ops|id es|id|id t]; cbn [visit_def declared_def filter is_entity]; f_equal.
    + apply entity_members. reflexivity.
    + rewrite filter_flat_map. apply flat_map_ext. intros o. unfold visit_op. rewrite <- flat_map_app, <- map_app. cbn [filter is_entity]. f_equal.
      apply entity_members. reflexivity.
    + rewrite filter_flat_map. apply flat_map_ext. intros e. cbn [visit_enumerator filter is_entity]. f_equal. apply entity_members. reflexivity.
    + apply entity_tref.
Qed.
Corollary entities_nodup f : NoDup (declared f) -> NoDup (filter is_entity (visit_file f)).
Proof. rewrite entities_exactly_once. auto. Qed.

Theorem type_right_after_owner f o t : In (o, t) (owned f) -> contains_block (visit_file f) o t.
Proof.
  unfold owned, visit_file. intros Hin. apply in_flat_map in Hin as (d & Hd & Hin).
  apply (block_app_l [_]), block_app_l, (block_in_flat_map _ _ Hd).
  destruct d as [id fs|id ops|id es|id|id ty]; cbn [owned_def visit_def] in *.
  - apply (block_app_l [_]), block_members, Hin.
  - apply in_flat_map in Hin as (op & Hop & Hin). apply (block_app_l [_]), (block_in_flat_map _ _ Hop), (block_app_l [_]).
    rewrite <- flat_map_app. rewrite <- map_app in Hin. apply block_members, Hin.
  - apply in_flat_map in Hin as (e & He & Hin). apply (block_app_l [_]), (block_in_flat_map _ _ He), (block_app_l [_]), block_members, Hin.
  - destruct Hin.
  - destruct Hin as [[= <- <-]|[]]. apply block_here.
Qed.
(* the type references presented are exactly those of the owned types, in source order: none skipped, none extra *)
Theorem types_exactly_once f : filter is_tref (visit_file f) = flat_map (fun p => visit_tref (snd p)) (owned f).
Proof.
  unfold visit_file, owned. cbn [filter is_tref]. rewrite filter_app, filter_flat_map, flat_map_flat_map.
  replace (filter is_tref _) with (@nil event) by (destruct (vfile_module f); reflexivity).
  apply flat_map_ext. intros [id fs|id ops|id es|id|id ty]; cbn [visit_def owned_def filter is_tref flat_map app].
  - apply tref_members. reflexivity.
  - rewrite filter_flat_map, flat_map_flat_map. apply flat_map_ext. intros op. unfold visit_op. rewrite <- flat_map_app, <- map_app. apply tref_members. reflexivity.
  - rewrite filter_flat_map, flat_map_flat_map. apply flat_map_ext. intros e. apply tref_members. reflexivity.
  - reflexivity.
  - rewrite app_nil_r. apply tref_only.
Qed.
