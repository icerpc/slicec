From Coq Require Import List Bool Arith Permutation.
Import ListNotations.

Definition ident := nat.
Definition scoped := list ident.
Definition scoped_eqb (a b:scoped) : bool := if list_eq_dec Nat.eq_dec a b then true else false.

Section Table.
Variable V : Type.
(* Ast::lookup_table: insertion order, later insertions win *)
Definition table := list (scoped * V).
Definition insert (t:table) (k:scoped) (v:V) : table := t ++ [(k, v)].
Fixpoint get (t:table) (k:scoped) : option V :=
  match t with
  | [] => None
  | (k', v) :: r => match get r k with Some x => Some x | None => if scoped_eqb k k' then Some v else None end
  end.

(* find_node_with_scope for a relative identifier: scope::id, then drop the last scope segment, ..., then id *)
Fixpoint walk (fuel:nat) (t:table) (scope:scoped) (id:scoped) : option V :=
  match get t (scope ++ id) with
  | Some v => Some v
  | None => match fuel, scope with
            | S f, _ :: _ => walk f t (removelast scope) id
            | _, _ => None
            end
  end.
Definition find (t:table) (scope:scoped) (global:bool) (id:scoped) : option V :=
  if global then get t id else walk (length scope) t scope id.

(* specification: first hit over the prefixes of the scope, longest first, then the global scope *)
Definition cands (s:scoped) : list scoped := map (fun n => firstn n s) (rev (seq 0 (S (length s)))).
Fixpoint first_hit (t:table) (ks:list scoped) : option V :=
  match ks with [] => None | k :: r => match get t k with Some v => Some v | None => first_hit t r end end.
Definition find_spec (t:table) (scope:scoped) (global:bool) (id:scoped) : option V :=
  if global then get t id else first_hit t (map (fun p => p ++ id) (cands scope)).
End Table.

Lemma cands_snoc (r:scoped) x : cands (r ++ [x]) = (r ++ [x]) :: cands r.
Proof.
  unfold cands. rewrite app_length, Nat.add_1_r, seq_S, rev_app_distr. cbn [rev app map Nat.add]. f_equal.
  - apply firstn_all2. rewrite app_length, Nat.add_1_r. apply le_n.
  - apply map_ext_in. intros n Hn. apply in_rev, in_seq in Hn as [_ Hn].
    rewrite firstn_app, (proj2 (Nat.sub_0_le n (length r))) by (apply le_S_n; exact Hn). apply app_nil_r.
Qed.
Lemma walk_snoc V (t:table V) n r x id :
  walk V (S n) t (r ++ [x]) id = match get V t ((r ++ [x]) ++ id) with Some v => Some v | None => walk V n t r id end.
Proof.
  replace (walk V n t r id) with (walk V n t (removelast (r ++ [x])) id) by (rewrite removelast_last; reflexivity).
  destruct r; reflexivity.
Qed.
Lemma walk_spec V (t:table V) id : forall n scope, length scope <= n ->
  walk V n t scope id = first_hit V t (map (fun p => p ++ id) (cands scope)).
Proof.
  intros n scope. revert n. induction scope as [|x r IH] using rev_ind; intros n Hn.
  - destruct n; cbn; destruct (get V t id); reflexivity.
  - rewrite app_length, Nat.add_1_r in Hn. destruct n as [|n]; [destruct (Nat.nle_succ_0 _ Hn)|].
    rewrite cands_snoc, walk_snoc, (IH n (le_S_n _ _ Hn)). reflexivity.
Qed.
Theorem find_eq_spec V (t:table V) scope global id : find V t scope global id = find_spec V t scope global id.
Proof. unfold find, find_spec. destruct global; [reflexivity|]. apply walk_spec, le_n. Qed.

Lemma scoped_eqb_eq a b : scoped_eqb a b = true <-> a = b.
Proof. unfold scoped_eqb. destruct (list_eq_dec Nat.eq_dec a b); split; congruence. Qed.
Lemma get_Some_In V (t:table V) k v : get V t k = Some v -> In (k, v) t.
Proof.
  induction t as [|[k' v'] r IH]; cbn [get]; [discriminate|]. destruct (get V r k) as [x|].
  - intros [= ->]. right. apply IH. reflexivity.
  - destruct (scoped_eqb k k') eqn:E; [|discriminate]. apply scoped_eqb_eq in E as <-. intros [= ->]. left. reflexivity.
Qed.
Lemma get_None V (t:table V) k : ~ In k (map fst t) -> get V t k = None.
Proof. intros H. destruct (get V t k) as [v|] eqn:G; [|reflexivity]. destruct H. exact (in_map fst _ _ (get_Some_In V t k v G)). Qed.
Lemma get_In V (t:table V) k v : NoDup (map fst t) -> In (k, v) t -> get V t k = Some v.
Proof.
  induction t as [|[k' v'] r IH]; cbn [map fst get]; intros ND Hin; [destruct Hin|]. apply NoDup_cons_iff in ND as [Hn ND].
  destruct Hin as [[= -> ->]|Hin]; [|rewrite (IH ND Hin); reflexivity].
  rewrite (get_None V r k Hn), (proj2 (scoped_eqb_eq k k) eq_refl). reflexivity.
Qed.
(* with unique keys the table's insertion order is irrelevant (C15) *)
Theorem get_perm V (t t':table V) k : NoDup (map fst t) -> Permutation t t' -> get V t k = get V t' k.
Proof.
  intros ND P. assert (ND': NoDup (map fst t')) by (eapply Permutation_NoDup; [apply Permutation_map; exact P|exact ND]).
  destruct (get V t k) as [v|] eqn:G; [symmetry; apply (get_In V t' k v ND'), (Permutation_in _ P), get_Some_In, G|].
  destruct (get V t' k) as [v|] eqn:G'; [|reflexivity]. rewrite <- G. apply (get_In V t k v ND), (Permutation_in _ (Permutation_sym P)), get_Some_In, G'.
Qed.
