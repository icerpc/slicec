From SliceV Require Import Base.ListFacts Sema.Cyc.
From Coq Require Import List Bool Arith Lia Relations.
Import ListNotations.

Lemma last_cons {A} (x : A) l d : last (x :: l) d = last l x.
Proof. revert x d. induction l as [|y l IH]; intros x d; [reflexivity|]. change (last (x :: y :: l) d) with (last (y :: l) d). rewrite !IH. reflexivity. Qed.
Lemma last_app {A} (p q : list A) : forall d, last (p ++ q) d = last q (last p d).
Proof. induction p as [|x p IH]; intros d; [reflexivity|]. cbn [app]. rewrite !last_cons. apply IH. Qed.
Lemma last_In {A} (l : list A) : forall d, In (last l d) (d :: l).
Proof. induction l as [|x l IH]; intros d; [left; reflexivity|]. rewrite last_cons. right. apply IH. Qed.
Lemma last_notin_removelast {A} (p : list A) d : NoDup p -> p <> [] -> ~ In (last p d) (removelast p).
Proof. intros ND NE. rewrite (app_removelast_last d NE) in ND. apply NoDup_remove_2 in ND. rewrite app_nil_r in ND. exact ND. Qed.
Lemma fold_left_inv {A B} (P : A -> Prop) (f : A -> B -> A) l : (forall a b, In b l -> P a -> P (f a b)) -> forall a, P a -> P (fold_left f l a).
Proof.
  induction l as [|x l IH]; intros H a Ha; cbn [fold_left]; [exact Ha|].
  apply IH; [intros a' b Hb; apply H; right; exact Hb|apply H; [left; reflexivity|exact Ha]].
Qed.
Lemma fold_left_incl {A B} (f : list A -> B -> list A) l : (forall a b, incl a (f a b)) -> forall a, incl a (fold_left f l a).
Proof. intros H a. apply (fold_left_inv (incl a)); [|apply incl_refl]. intros a' b _ Ha. exact (incl_tran Ha (H a' b)). Qed.

Section Proofs.
Variable succ : nat -> list nat.
(* the bare names stand for the functions at succ; `cbn [Cyc.push]`, `cbn [Cyc.walk]` name the functions themselves *)
Notation push := (push succ).
Notation check_root := (check_root succ).
Notation detect := (detect succ).
Notation edge := (edge succ).
Notation walk := (walk succ).
Notation on_cycle := (on_cycle succ).

Lemma memb_In x l : memb x l = true <-> In x l.
Proof. apply (existsb_eqb_In Nat.eqb Nat.eqb_eq). Qed.
Lemma subsetb_incl a b : subsetb a b = true <-> incl a b.
Proof. unfold subsetb. rewrite forallb_forall. split; intros H x Hx; apply memb_In, H, Hx. Qed.
Lemma same_set_spec a b : same_set a b = true <-> (incl a b /\ incl b a).
Proof. unfold same_set. rewrite andb_true_iff, !subsetb_incl. reflexivity. Qed.
Lemma same_set_refl a : same_set a a = true.
Proof. apply same_set_spec; split; apply incl_refl. Qed.

Definition covers (S:list nat) (rep:list report) : Prop :=
  exists r, In r rep /\ same_set (snd r) S = true.
Lemma seen_covers ch rep : seen ch rep = true <-> covers ch rep.
Proof. apply existsb_exists. Qed.
Lemma covers_incl S a b : incl a b -> covers S a -> covers S b.
Proof. intros H (r & Hr & E). exists r. split; [apply H, Hr|exact E]. Qed.

Lemma push_incl : forall fuel root stack c rep, incl rep (push fuel root stack c rep).
Proof.
  induction fuel as [|f IH]; intros; cbn [Cyc.push]; [apply incl_refl|].
  destruct (Nat.eqb c root); [destruct (seen _ _); [apply incl_refl|apply incl_appl, incl_refl]|].
  destruct (memb c stack); [apply incl_refl|]. apply fold_left_incl. intros. apply IH.
Qed.
Lemma check_root_incl fuel rep v : incl rep (check_root fuel rep v).
Proof. apply fold_left_incl. intros. apply push_incl. Qed.

(* a reported chain is a real path root -> ... -> root *)
Definition good (r:report) : Prop := walk (fst r) (snd r) /\ last (snd r) (fst r) = fst r /\ snd r <> [].
Lemma walk_app a p q : walk a (p ++ q) <-> walk a p /\ walk (last p a) q.
Proof.
  revert a; induction p as [|x p IH]; intros a; cbn [app Cyc.walk]; [tauto|]. rewrite last_cons, and_assoc. apply and_iff_compat_l, IH.
Qed.
(* R: what is known of the roots asked about *)
Lemma push_sound (R : nat -> Prop) : forall fuel root stack c rep,
  R root -> walk root stack -> edge (last stack root) c -> Forall (fun r => good r /\ R (fst r)) rep ->
  Forall (fun r => good r /\ R (fst r)) (push fuel root stack c rep).
Proof.
  induction fuel as [|f IH]; intros root stack c rep Hr Hw He Hg; cbn [Cyc.push]; [exact Hg|].
  assert (Hw' : walk root (stack ++ [c])) by (apply walk_app; cbn; auto).
  destruct (Nat.eqb_spec c root) as [->|_].
  - destruct (seen _ _); [exact Hg|]. apply Forall_app. split; [exact Hg|]. repeat constructor; cbn [fst snd]; [exact Hw'|apply last_last| |exact Hr].
    intros E. exact (app_cons_not_nil _ _ _ (eq_sym E)).
  - destruct (memb c stack); [exact Hg|]. apply (fold_left_inv (Forall _)); [|exact Hg].
    intros rep' x Hx Hg'. apply IH; [exact Hr|exact Hw'|rewrite last_last; exact Hx|exact Hg'].
Qed.
Theorem detect_sound_roots fuel nodes : Forall (fun r => good r /\ In (fst r) nodes) (detect fuel nodes).
Proof.
  apply (fold_left_inv (Forall _)); [|constructor]. intros rep r Hr Hg.
  apply (fold_left_inv (Forall _)); [|exact Hg]. intros rep' x Hx Hg'. apply (push_sound (fun v => In v nodes)); [exact Hr|exact I|exact Hx|exact Hg'].
Qed.
Theorem detect_sound fuel nodes : Forall good (detect fuel nodes).
Proof. eapply Forall_impl; [|apply detect_sound_roots]. intros r H. apply H. Qed.
Lemma clos_walk a b : clos_trans nat edge a b <-> exists q, walk a q /\ q <> [] /\ last q a = b.
Proof.
  split.
  - induction 1 as [a b E|a m b _ (q1 & W1 & N1 & L1) _ (q2 & W2 & N2 & L2)].
    + exists [b]. repeat split; [exact E|discriminate].
    + exists (q1 ++ q2). rewrite walk_app, last_app, L1. repeat split; [exact W1|exact W2| |exact L2].
      intros E. apply app_eq_nil in E as [E _]. exact (N1 E).
  - intros (q & W & NE & <-). revert a W NE. induction q as [|c q IH]; intros a W NE; [congruence|]. destruct W as [E W]. rewrite last_cons.
    destruct q as [|d q']; [apply t_step, E|]. eapply t_trans; [apply t_step, E|]. apply IH; [exact W|discriminate].
Qed.
Lemma good_on_cycle r : good r -> on_cycle (fst r).
Proof. intros (W & L & NE). apply clos_walk. exists (snd r). auto. Qed.

(* c :: q is a simple path that ends in root, meets root nowhere else and avoids the stack: push goes along it, so the chain
   stack ++ c :: q is reported unless one with the same nodes has been *)
Lemma push_complete : forall q fuel root stack c rep,
  walk c q -> last q c = root -> NoDup (c :: q) -> ~ In root (removelast (c :: q)) ->
  (forall x, In x (c :: q) -> ~ In x stack) -> length (c :: q) <= fuel ->
  covers (stack ++ c :: q) (push fuel root stack c rep).
Proof.
  induction q as [|b q IH]; intros fuel root stack c rep Hw Hl Hnd Hnr Hdis Hf; (destruct fuel as [|fuel]; [cbn in Hf; lia|]); cbn [Cyc.push].
  - cbn in Hl; subst c. rewrite Nat.eqb_refl.
    destruct (seen (stack ++ [root]) rep) eqn:E; [apply seen_covers, E|].
    exists (root, stack ++ [root]). split; [apply in_elt|apply same_set_refl].
  - destruct (Nat.eqb_spec c root) as [->|_]; [destruct Hnr; left; reflexivity|].
    destruct (memb c stack) eqn:M; [apply memb_In in M; destruct (Hdis c (or_introl eq_refl) M)|].
    destruct Hw as [He Hw]. apply in_split in He as (l1 & l2 & ->). rewrite fold_left_app. cbn [fold_left].
    eapply covers_incl; [apply fold_left_incl; intros; apply push_incl|].
    change (c :: b :: q) with ([c] ++ b :: q). rewrite app_assoc. rewrite last_cons in Hl. apply NoDup_cons_iff in Hnd as [Hc Hnd'].
    apply IH; [exact Hw|exact Hl|exact Hnd'|intros H; apply Hnr; right; exact H| |cbn in *; lia].
    intros x Hx Hin. apply in_app_or in Hin as [Hin|[<-|[]]]; [exact (Hdis x (or_intror Hx) Hin)|exact (Hc Hx)].
Qed.

(* loop erasure: a walk contains a simple walk with the same end *)
Lemma simple_walk : forall n q a, length q <= n -> walk a q -> q <> [] ->
  exists q', walk a q' /\ q' <> [] /\ last q' a = last q a /\ NoDup q' /\ incl q' q.
Proof.
  induction n as [|n IH]; intros q a Hn Hw Hne; (destruct q as [|x r]; [congruence|]); [cbn in Hn; lia|]. destruct Hw as [He Hw].
  destruct (in_dec Nat.eq_dec x r) as [Hin|Hnin].
  - apply in_split in Hin as (r1 & r2 & ->). apply walk_app in Hw as [_ [_ Hw]].
    destruct (IH (x :: r2) a) as (q' & W & NE & L & ND & I); [cbn in *; rewrite app_length in Hn; cbn in Hn; lia|split; assumption|discriminate|].
    exists q'. repeat split; [exact W|exact NE| |exact ND|].
    + rewrite L, !last_cons, last_app, last_cons. reflexivity.
    + intros y Hy. apply I in Hy as [<-|Hy]; [left; reflexivity|right; apply in_or_app; right; right; exact Hy].
  - destruct r as [|y r'].
    + exists [x]. repeat split; [exact He|discriminate|repeat constructor; intros []|apply incl_refl].
    + destruct (IH (y :: r') x) as (q' & W & NE & L & ND & I); [cbn in *; lia|exact Hw|discriminate|].
      exists (x :: q'). repeat split; [exact He|exact W|discriminate|rewrite 2 last_cons; exact L| |exact (incl_cons (in_eq _ _) (incl_tl _ I))].
      constructor; [intros H; exact (Hnin (I _ H))|exact ND].
Qed.

Variable univ : list nat.
Hypothesis univ_closed : forall a b, edge a b -> In b univ.
Lemma walk_incl_univ a p : walk a p -> incl p univ.
Proof.
  revert a; induction p as [|x p IH]; intros a W y Hy; [contradiction|].
  destruct W as [E W]. destruct Hy as [<-|Hy]; [exact (univ_closed a x E)|exact (IH x W y Hy)].
Qed.

Lemma check_root_complete fuel v rep :
  length univ <= fuel -> on_cycle v -> exists r, In r (check_root fuel rep v) /\ In v (snd r).
Proof.
  intros Hf Hc. apply clos_walk in Hc as (q & W & NE & L).
  destruct (simple_walk (length q) q v (le_n _) W NE) as ([|c q'] & W' & NE' & L' & ND & _); [congruence|].
  rewrite L, last_cons in L'. pose proof (walk_incl_univ _ _ W') as U. destruct W' as [He W'].
  unfold check_root. apply in_split in He as (l1 & l2 & ->). rewrite fold_left_app. cbn [fold_left].
  destruct (push_complete q' fuel v [] c (fold_left (fun rep' c' => push fuel v [] c' rep') l1 rep)) as (r & Hr & S);
    [exact W'|exact L'|exact ND| |intros x _ []|exact (Nat.le_trans _ _ _ (NoDup_incl_length ND U) Hf)|].
  - rewrite <- L', <- (last_cons c q' v). apply last_notin_removelast; [exact ND|discriminate].
  - exists r. split; [apply (fold_left_incl _ l2 (fun a b => push_incl fuel v [] b a)), Hr|].
    apply same_set_spec in S as [_ S]. apply S. rewrite <- L'. apply last_In.
Qed.

Theorem detect_complete fuel nodes v :
  length univ <= fuel -> In v nodes -> on_cycle v -> exists r, In r (detect fuel nodes) /\ In v (snd r).
Proof.
  intros Hf Hin Hc. unfold detect. generalize (@nil report).
  induction nodes as [|x ns IH]; intros rep; [contradiction|]. cbn [fold_left].
  destruct Hin as [->|Hin]; [|apply IH; exact Hin].
  destruct (check_root_complete fuel v rep Hf Hc) as (r & Hr & Hv). exists r. split; [|exact Hv].
  apply (fold_left_incl _ ns (check_root_incl fuel)), Hr.
Qed.
End Proofs.
Print Assumptions detect_complete.
Print Assumptions detect_sound.
