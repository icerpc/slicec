(* The attribute rule model meets its declarative reading (C04): no attribute diagnostic exactly when every attribute is known (or
   carries a scope prefix), takes the right number of accepted arguments, is written where it is legal, and no non-repeatable
   attribute occurs twice on one element; the code for an unknown attribute is reported exactly when some attribute is unknown and
   unscoped.  The table of built-in attributes regenerated from the sources equals the one the model fixes. *)
From Coq Require Import List NArith Bool PeanoNat String Ascii.
From SliceV Require Import Base.ListFacts Doc.Comment Sema.AttrTypes Gen.AttributeRules Sema.Attributes.
Import ListNotations.
Local Open Scope nat_scope.
Close Scope string_scope.

(* spelling strings as bytes, for the statements below only *)
Fixpoint bytes_of (s : string) : list N := match s with EmptyString => [] | String c r => N_of_ascii c :: bytes_of r end.
Theorem regenerated_table_is_expected : attribute_rules = the_rules.
Proof. reflexivity. Qed.

Definition count_fits (r : arule) (n : nat) : Prop := ar_min r <= n /\ forall m, ar_max r = Some m -> n < m.
Definition arg_accepted (r : arule) (x : list N) : Prop := forall l, ar_args r = Some l -> In x l.
Definition wellformed (a : attribute) : Prop :=
  match rule_of a with
  | Some r => count_fits r (List.length (ad_args a)) /\ Forall (arg_accepted r) (ad_args a)
  | None => unscoped (ad_dir a) = false
  end.
Definition allowed_at (r : arule) (p : place) : Prop := match ar_where r with OnlyOn l => In p l | NotOn l => ~ In p l end.
Definition legal (e : element) (a : attribute) : Prop :=
  match rule_of a with Some r => allowed_at r (el_place e) /\ (ar_no_return r = true -> el_returns e = false) | None => True end.
Definition not_repeated (l : list attribute) : Prop := NoDup (map ad_dir (filter nonrepeatable l)).

Lemma Forall_and_iff {A} (P Q : A -> Prop) l : Forall P l /\ Forall Q l <-> Forall (fun x => P x /\ Q x) l.
Proof. split; [intros [H1 H2]; apply Forall_and; assumption|apply Forall_and_inv]. Qed.
Lemma cstr_eqb_eq a b : cstr_eqb a b = true <-> a = b.
Proof. revert a b. apply (eqb_list_iff N.eqb _ N.eqb_eq). intros [|] [|]; reflexivity. Qed.
Lemma place_eqb_eq a b : place_eqb a b = true <-> a = b.
Proof. split; [destruct a, b; (reflexivity || discriminate)|intros ->; destruct b; reflexivity]. Qed.
(* a rule's optional restriction (an upper count, a list of arguments): its test passes iff P holds of the restriction, if there is one *)
Lemma option_all {A} (o : option A) (b : A -> bool) (P : A -> Prop) : (forall v, b v = true <-> P v) ->
  match o with Some v => b v | None => true end = true <-> forall v, o = Some v -> P v.
Proof.
  intros H. destruct o as [v|]; [rewrite H|]; split; [intros p ? [= <-]; exact p|intros p; exact (p v eq_refl)|discriminate|reflexivity].
Qed.

Lemma count_ok_iff r n : count_ok r n = true <-> count_fits r n.
Proof. unfold count_ok, count_fits. rewrite andb_true_iff, Nat.leb_le. apply and_iff_compat_l, option_all. intros m. apply Nat.ltb_lt. Qed.
Lemma arg_ok_iff r x : arg_ok r x = true <-> arg_accepted r x.
Proof. apply option_all. intros l. apply (existsb_eqb_In _ cstr_eqb_eq). Qed.
Theorem parse_codes_nil a : parse_codes a = [] <-> wellformed a.
Proof.
  unfold parse_codes, wellformed. destruct (rule_of a) as [r|]; [|destruct (unscoped (ad_dir a)); split; (discriminate || reflexivity)].
  apply app_nil_and; [rewrite unless_nil_iff; apply count_ok_iff|]. rewrite map_nil_iff, filter_nil_iff. apply Forall_iff.
  intros x _. rewrite negb_false_iff. apply arg_ok_iff.
Qed.
Lemma placed_ok_iff r p ret : placed_ok r p ret = true <-> allowed_at r p /\ (ar_no_return r = true -> ret = false).
Proof.
  unfold placed_ok, allowed_at. rewrite andb_true_iff, negb_true_iff.
  assert (B : ar_no_return r && ret = false <-> (ar_no_return r = true -> ret = false)) by (destruct (ar_no_return r), ret; cbn; intuition congruence).
  rewrite B. apply and_iff_compat_r. destruct (ar_where r) as [l|l]; [|rewrite negb_true_iff, <- not_true_iff_false]; rewrite (existsb_eqb_In _ place_eqb_eq); reflexivity.
Qed.
Theorem place_codes_nil e a : place_codes e a = [] <-> legal e a.
Proof. unfold place_codes, legal. destruct (rule_of a) as [r|]; [|tauto]. rewrite unless_nil_iff. apply placed_ok_iff. Qed.
Lemma repeat_codes_nil : forall l seen, repeat_codes seen l = [] <-> NoDup (map ad_dir (filter nonrepeatable l)) /\ forall d, In d (map ad_dir (filter nonrepeatable l)) -> ~ In d seen.
Proof.
  induction l as [|a r IH]; intros seen; cbn [repeat_codes filter map]; [split; [intros _; split; [constructor|intros d []]|reflexivity]|].
  destruct (nonrepeatable a); [|apply IH]. cbn [map]. rewrite <- nodup_cons_seen, <- IH, <- (existsb_eqb_In _ cstr_eqb_eq).
  destruct (existsb (cstr_eqb (ad_dir a)) seen); intuition congruence.
Qed.
Theorem repeat_codes_nil0 l : repeat_codes [] l = [] <-> not_repeated l.
Proof. rewrite repeat_codes_nil. split; [intros [H _]; exact H|intros H; split; [exact H|intros d _ []]]. Qed.
Theorem validate_codes_nil e : validate_codes e = [] <-> not_repeated (el_attrs e) /\ Forall (legal e) (el_attrs e).
Proof. unfold validate_codes. apply app_nil_and; [apply repeat_codes_nil0|]. apply flat_map_nil_Forall. intros a _. apply place_codes_nil. Qed.
(* a program draws no attribute diagnostic exactly when all its attributes are well-formed, legal where they are and not repeated *)
Theorem attributes_accepted_iff es : check_attributes es = [] <->
  Forall (fun e => Forall wellformed (el_attrs e) /\ not_repeated (el_attrs e) /\ Forall (legal e) (el_attrs e)) es.
Proof.
  unfold check_attributes, patch_codes. rewrite gate_nil_iff, !flat_map_nil_iff, Forall_and_iff. apply Forall_iff. intros e _.
  rewrite validate_codes_nil. apply and_iff_compat_r, flat_map_nil_Forall. intros a _. apply parse_codes_nil.
Qed.

(* the code for an unknown attribute names a rule that is violated *)
Lemma unknown_parse a : In E024 (parse_codes a) <-> rule_of a = None /\ unscoped (ad_dir a) = true.
Proof.
  unfold parse_codes. destruct (rule_of a) as [r|].
  - rewrite in_app_iff, in_map_iff. split; [|intros [[=] _]]. intros [H|(x & [=] & _)]. destruct (count_ok r _); [destruct H|destruct H as [[=]|[]]].
  - destruct (unscoped (ad_dir a)); split; [intros _; split; reflexivity|intros _; left; reflexivity|intros []|intros [_ [=]]].
Qed.
Lemma unknown_not_validate e : ~ In E024 (validate_codes e).
Proof.
  unfold validate_codes. rewrite in_app_iff, in_flat_map. intros [H|(a & _ & H)].
  - revert H. generalize (@nil (list N)). induction (el_attrs e) as [|a r IH]; intros seen; cbn [repeat_codes]; [intros []|].
    destruct (nonrepeatable a); [destruct (existsb (cstr_eqb (ad_dir a)) seen); [intros [[=]|H]; exact (IH _ H)|]|]; apply IH.
  - unfold place_codes in H. destruct (rule_of a) as [r|]; [destruct (placed_ok _ _ _)|]; [destruct H|destruct H as [[=]|[]]|destruct H].
Qed.
Theorem unknown_iff es : In E024 (check_attributes es) <-> exists e a, In e es /\ In a (el_attrs e) /\ rule_of a = None /\ unscoped (ad_dir a) = true.
Proof.
  assert (P : In E024 (patch_codes es) <-> exists e a, In e es /\ In a (el_attrs e) /\ rule_of a = None /\ unscoped (ad_dir a) = true).
  { unfold patch_codes. rewrite in_flat_map. split.
    - intros (e & He & H). apply in_flat_map in H as (a & Ha & H). apply unknown_parse in H. exists e, a. auto.
    - intros (e & a & He & Ha & H). apply unknown_parse in H. exists e. split; [exact He|]. apply in_flat_map. exists a. auto. }
  unfold check_attributes. rewrite <- P. destruct (patch_codes es); [|reflexivity]. split; [|intros []].
  intros H. apply in_flat_map in H as (e & _ & H). destruct (unknown_not_validate e H).
Qed.
(* facts of the table that a reader of the property expects *)
Example table_facts :
  let at_ p d args := check_attributes [mkelement p false [mkattribute (bytes_of d) (map bytes_of args)]] in
  at_ PlParameter "deprecated"%string [] = [E023] /\ at_ PlStruct "deprecated"%string ["reason"]%string = [] /\ at_ PlStruct "deprecated"%string ["a"; "b"]%string = [E028] /\
  at_ PlField "allow"%string ["Deprecated"]%string = [] /\ at_ PlField "allow"%string ["DuplicateFile"]%string = [E027] /\ at_ PlField "allow"%string [] = [E028] /\
  at_ PlModule "allow"%string ["All"]%string = [E023] /\ at_ PlStruct "oneway"%string [] = [E023] /\ at_ PlOperation "oneway"%string [] = [] /\
  check_attributes [mkelement PlOperation true [mkattribute (bytes_of "oneway") []]] = [E023] /\
  at_ PlOperation "compress"%string ["Args"; "Return"]%string = [] /\ at_ PlOperation "compress"%string ["Zip"]%string = [E027] /\
  at_ PlStruct "nosuch"%string [] = [E024] /\ at_ PlStruct "cs::nosuch"%string ["x"]%string = [] /\
  check_attributes [mkelement PlOperation false [mkattribute (bytes_of "compress") [bytes_of "Args"]; mkattribute (bytes_of "compress") [bytes_of "Return"]]] = [E026] /\
  check_attributes [mkelement PlStruct false [mkattribute (bytes_of "allow") [bytes_of "All"]; mkattribute (bytes_of "allow") [bytes_of "Deprecated"]]] = [].
Proof. vm_compute. repeat split. Qed.
