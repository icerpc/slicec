(* The rule catalogue of C04 as declarative predicates, and the proof that the checks of Sema/Validate.v are silent
   exactly on the programs that satisfy it. *)
From Coq Require Import List Bool Arith ZArith Lia Sorting Permutation Orders.
From SliceV Require Import Base.ListFacts Gen.NumericBounds Sema.Validate.
Import ListNotations.

(* app_nil_iff from right to left, curried: applied part by part it leaves a much smaller term than the equivalence does *)
Lemma app_nil_intro {A} (a b : list A) : a = [] -> b = [] -> a ++ b = [].
Proof. intros -> ->. reflexivity. Qed.
(* flat_map_nil_Forall and flat_map_nil_iff with `forall x, In x l -> ...` for Forall, the way the predicates below are written *)
Lemma flat_map_nil_pointwise {A B} (f : A -> list B) (P : A -> Prop) l :
  (forall x, In x l -> (f x = [] <-> P x)) -> (flat_map f l = [] <-> forall x, In x l -> P x).
Proof. intros H. rewrite <- Forall_forall. apply flat_map_nil_Forall, H. Qed.
Lemma flat_map_nil_In {A B} (f : A -> list B) l : flat_map f l = [] <-> forall x, In x l -> f x = [].
Proof. apply flat_map_nil_pointwise. reflexivity. Qed.
Lemma if_nil_iff {A} (b : bool) (l : list A) : l <> [] -> ((if b then l else []) = [] <-> b = false).
Proof. destruct b; split; intros; try congruence; auto. Qed.

Theorem names_unique_iff names : redefs [] names = [] <-> NoDup names.
Proof.
  apply (no_repeat_iff0 redefs); [reflexivity|]. intros seen n r. cbn [redefs]. unfold memn.
  rewrite <- (existsb_eqb_In Nat.eqb Nat.eqb_eq). destruct (existsb (Nat.eqb n) seen); cbn [app]; intuition congruence.
Qed.
Lemma values_unique_iff vs : dup_values [] vs = [] <-> NoDup vs.
Proof.
  apply (no_repeat_iff0 dup_values); [reflexivity|]. intros seen v r. cbn [dup_values].
  rewrite <- (existsb_eqb_In Z.eqb Z.eqb_eq). destruct (existsb (Z.eqb v) seen); intuition congruence.
Qed.

(* in a sorted list equal elements are neighbours *)
Lemma adjacent_dups_nil_iff l : StronglySorted (fun x y => is_true (ZOrder.leb x y)) l -> (adjacent_dups l = [] <-> NoDup l).
Proof.
  induction 1 as [|a l Hs IH Hall]; [split; [constructor|reflexivity]|].
  destruct l as [|b r]; [split; [intros _; repeat constructor; intros []|reflexivity]|].
  cbn [adjacent_dups]. rewrite app_nil_iff, IH, (NoDup_cons_iff a). apply and_iff_compat_r.
  destruct (Z.eqb_spec a b) as [->|Hne]; [split; [discriminate|intros H; destruct H; left; reflexivity]|].
  split; [|reflexivity]. intros _ [E|Hin]; [congruence|].
  apply StronglySorted_inv in Hs as [_ Hb]. rewrite Forall_forall in Hall, Hb.
  pose proof (Hall b (or_introl eq_refl)) as H1. pose proof (Hb a Hin) as H2. apply Z.leb_le in H1, H2. lia.
Qed.
Theorem tags_unique_iff tags : adjacent_dups (ZSort.sort tags) = [] <-> NoDup tags.
Proof.
  rewrite adjacent_dups_nil_iff.
  - split; apply Permutation_NoDup; [apply Permutation_sym|]; apply ZSort.Permuted_sort.
  - apply ZSort.StronglySorted_sort. intros x y z Hxy Hyz. apply Z.leb_le in Hxy, Hyz. apply Z.leb_le. lia.
Qed.
Definition members_ok (ms : list member) : Prop :=
  (forall m, In m ms -> is_tagged m = true -> opt_of (m_ty m) = true) /\ NoDup (tags_of ms).
Theorem validate_members_iff ms : validate_members ms = [] <-> members_ok ms.
Proof.
  unfold validate_members, members_ok. apply app_nil_and; [|apply tags_unique_iff].
  apply flat_map_nil_pointwise. intros m _. destruct (is_tagged m), (opt_of (m_ty m)); cbn; intuition congruence.
Qed.

Definition struct_ok (s : sdef) : Prop :=
  s_compact s = true -> s_fields s <> [] /\ forall m, In m (s_fields s) -> is_tagged m = false.
Theorem validate_struct_iff s : validate_struct s = [] <-> struct_ok s.
Proof.
  unfold validate_struct, struct_ok. rewrite app_nil_iff. destruct (s_compact s); cbn [andb]; [|intuition congruence].
  rewrite (flat_map_nil_pointwise _ (fun m => is_tagged m = false)) by (intros m _; apply if_nil_iff; discriminate).
  destruct (s_fields s); cbn; intuition congruence.
Qed.

Record enum_ok (e : edef) : Prop := {
  eo_bounds : forall b, bounds_of e = Some b -> forall en, In en (ed_ens e) -> in_range b (en_value en) = true;
  eo_integral : forall q o, ed_under e = Some (q, o) -> prim_is_integral q = true /\ o = false;
  eo_unique : NoDup (map en_value (ed_ens e));
  eo_nonempty : ed_unchecked e = false -> ed_ens e <> [];
  eo_compact : ed_compact e = true -> ed_under e = None /\ ed_unchecked e = false /\
               forall en m, In en (ed_ens e) -> In m (en_field_list en) -> is_tagged m = false;
  eo_no_fields : ed_under e <> None -> forall en, In en (ed_ens e) -> en_fields en = None }.
Theorem validate_enum_iff e : validate_enum e = [] <-> enum_ok e.
Proof.
  unfold validate_enum. split.
  (* the eight parts are taken apart and put together one by one: rewriting the whole concatenation with app_nil_iff
     carries every part along at every step *)
  - intros (H1 & (H2 & (H3 & (H4 & (H5 & (H6 & (H7 & H8)%app_eq_nil)%app_eq_nil)%app_eq_nil)%app_eq_nil)%app_eq_nil)%app_eq_nil)%app_eq_nil.
    constructor.
    + intros b Hb en Hen. rewrite Hb, flat_map_nil_In in H1. specialize (H1 en Hen).
      destruct (in_range b (en_value en)); [reflexivity|discriminate].
    + intros q o Hu. rewrite Hu in H2, H4. split; [destruct (prim_is_integral q); [reflexivity|discriminate]|destruct o; [discriminate|reflexivity]].
    + apply values_unique_iff, H3.
    + intros Hu Hn. rewrite Hu, Hn in H5. discriminate.
    + intros Hc. rewrite Hc in H6, H7. apply app_nil_iff in H6 as [H6a H6b]. repeat split.
      * destruct (ed_under e); [discriminate|reflexivity].
      * destruct (ed_unchecked e); [discriminate|reflexivity].
      * intros en m Hen Hm. rewrite flat_map_nil_In in H7. specialize (H7 en Hen). rewrite flat_map_nil_In in H7. specialize (H7 m Hm).
        destruct (is_tagged m); [discriminate|reflexivity].
    + intros Hu en Hen. destruct (ed_under e) as [u|]; [|congruence]. rewrite flat_map_nil_In in H8. specialize (H8 en Hen).
      destruct (en_fields en); [discriminate|reflexivity].
  - intros [B I U N C F]. repeat apply app_nil_intro.
    + destruct (bounds_of e) as [b|] eqn:Eb; [|reflexivity]. apply flat_map_nil_In. intros en Hen. rewrite (B b eq_refl en Hen). reflexivity.
    + destruct (ed_under e) as [[q o]|] eqn:Eu; [|reflexivity]. destruct (I q o eq_refl) as [-> _]. reflexivity.
    + apply values_unique_iff, U.
    + destruct (ed_under e) as [[q o]|] eqn:Eu; [|reflexivity]. destruct (I q o eq_refl) as [_ ->]. reflexivity.
    + destruct (ed_unchecked e) eqn:Eu; cbn; [reflexivity|]. specialize (N eq_refl). destruct (ed_ens e); [congruence|reflexivity].
    + destruct (ed_compact e) eqn:Ec; [|reflexivity]. destruct (C eq_refl) as (-> & -> & _). reflexivity.
    + destruct (ed_compact e) eqn:Ec; [|reflexivity]. destruct (C eq_refl) as (_ & _ & Ht).
      apply flat_map_nil_In. intros en Hen. apply flat_map_nil_In. intros m Hm. rewrite (Ht en m Hen Hm). reflexivity.
    + destruct (ed_under e) as [u|] eqn:Eu; [|reflexivity]. apply flat_map_nil_In. intros en Hen.
      rewrite (F ltac:(discriminate) en Hen). reflexivity.
Qed.

Definition stream_ok (ms : list member) : Prop := forall m, In m (removelast ms) -> m_stream m = false.
Lemma filter_stream_removelast ms : stream_ok ms -> (length (filter m_stream ms) <= 1)%nat.
Proof.
  induction ms as [|a ms IH]; intros H; cbn; [lia|].
  destruct ms as [|b r]; [cbn; destruct (m_stream a); cbn; lia|].
  assert (Ha : m_stream a = false) by (apply H; cbn; auto). rewrite Ha. apply IH.
  intros m Hm. apply H. cbn. right. exact Hm.
Qed.
Theorem validate_parameters_iff ms : validate_parameters ms = [] <-> stream_ok ms.
Proof.
  unfold validate_parameters, stream_ok. rewrite app_nil_iff.
  rewrite (flat_map_nil_pointwise _ (fun m => m_stream m = false)) by (intros m _; apply if_nil_iff; discriminate).
  split; [intros [H _]; exact H|]. intros H. split; [exact H|].
  pose proof (filter_stream_removelast ms H) as Hl. destruct (Nat.ltb_spec 1 (length (filter m_stream ms))); [lia|reflexivity].
Qed.

(* primitive 0 is bool, 15 is string (Gen/NumericBounds.v) *)
Inductive legal_key (p : program) : rtyref -> Prop :=
| lk_prim q : prim_is_integral q = true \/ q = 0 \/ q = 15 -> legal_key p (RT false (RPrim q))
| lk_custom : legal_key p (RT false RCustom)
| lk_enum id e u : find_enum p id = Some e -> ed_under e = Some u -> legal_key p (RT false (REnum id))
| lk_struct id s : find_struct p id = Some s -> s_compact s = true ->
    (forall m, In m (s_fields s) -> legal_key p (m_ty m)) -> legal_key p (RT false (RStruct id)).
Lemma key_prim_iff q : prim_is_integral q || Nat.eqb q 0 || Nat.eqb q 15 = true <-> prim_is_integral q = true \/ q = 0 \/ q = 15.
Proof. rewrite !orb_true_iff, !Nat.eqb_eq. tauto. Qed.
Lemma key_fields_iff p f ms :
  existsb (fun m => match key_error p f (m_ty m) with Some _ => true | None => false end) ms = false <-> forall m, In m ms -> key_error p f (m_ty m) = None.
Proof.
  rewrite <- not_true_iff_false, existsb_exists. split.
  - intros H m Hm. destruct (key_error p f (m_ty m)) eqn:E; [|reflexivity]. destruct H. exists m. rewrite E. split; [exact Hm|reflexivity].
  - intros H (m & Hm & E). rewrite (H m Hm) in E. discriminate.
Qed.
Theorem key_error_sound p : forall fuel t, key_error p fuel t = None -> legal_key p t.
Proof.
  induction fuel as [|f IH]; intros [opt ty]; cbn [key_error]; [discriminate|].
  destruct opt; [discriminate|]. destruct ty as [q|id|id| |e|k v|s fl]; try discriminate.
  - destruct (prim_is_integral q || Nat.eqb q 0 || Nat.eqb q 15) eqn:E; [|discriminate]. intros _. constructor. apply key_prim_iff, E.
  - destruct (find_struct p id) as [s|] eqn:Es; [|discriminate].
    destruct (s_compact s) eqn:Ec; cbn [negb]; [|discriminate].
    destruct (existsb _ (s_fields s)) eqn:Ex; [discriminate|]. intros _. econstructor; [exact Es|exact Ec|].
    intros m Hm. apply IH. exact (proj1 (key_fields_iff p f _) Ex m Hm).
  - destruct (find_enum p id) as [e|] eqn:Ee; [|discriminate]. destruct (ed_under e) as [u|] eqn:Eu; [|discriminate]. intros _. econstructor; eassumption.
  - intros _. constructor.
Qed.
(* the index bounds the nesting depth of compact key structs: a legal key passes the check once the fuel covers it *)
Inductive legal_key_depth (p : program) : nat -> rtyref -> Prop :=
| lkd_prim n q : prim_is_integral q = true \/ q = 0 \/ q = 15 -> legal_key_depth p (S n) (RT false (RPrim q))
| lkd_custom n : legal_key_depth p (S n) (RT false RCustom)
| lkd_enum n id e u : find_enum p id = Some e -> ed_under e = Some u -> legal_key_depth p (S n) (RT false (REnum id))
| lkd_struct n id s : find_struct p id = Some s -> s_compact s = true ->
    (forall m, In m (s_fields s) -> legal_key_depth p n (m_ty m)) -> legal_key_depth p (S n) (RT false (RStruct id)).
Theorem key_error_complete p : forall n t, legal_key_depth p n t -> forall fuel, (n <= fuel)%nat -> key_error p fuel t = None.
Proof.
  induction 1 as [n q Hq|n|n id e u He Hu|n id s Hs Hc Hf IH]; intros fuel Hle; (destruct fuel as [|f]; [lia|]); cbn [key_error].
  - rewrite (proj2 (key_prim_iff q) Hq). reflexivity.
  - reflexivity.
  - rewrite He, Hu. reflexivity.
  - rewrite Hs, Hc, (proj2 (key_fields_iff p f _)); [reflexivity|]. intros m Hm. apply (IH m Hm). lia.
Qed.
(* every dictionary reachable in a visited type has a key the check accepts *)
Fixpoint dict_keys (t : rtyref) : list rtyref :=
  match t with RT _ ty =>
    match ty with
    | RSeq e => dict_keys e
    | RDict k v => k :: dict_keys k ++ dict_keys v
    | RRes s f => dict_keys s ++ dict_keys f
    | _ => []
    end
  end.
Theorem dict_errors_iff p : forall t, dict_errors p t = [] <-> forall k, In k (dict_keys t) -> key_error p (S (length p)) k = None.
Proof.
  intros t. rewrite <- Forall_forall. revert t.
  (* by recursion on the type: IH is applied to the components of ty only *)
  fix IH 1. intros [o ty]. destruct ty as [q|id|id| |e|k v|s f]; cbn [dict_errors dict_keys]; try (split; [constructor|reflexivity]).
  - apply IH.
  - rewrite Forall_cons_iff, Forall_app. apply app_nil_and; [destruct (key_error p (S (length p)) k); split; congruence|]. apply app_nil_and; apply IH.
  - rewrite Forall_app. apply app_nil_and; apply IH.
Qed.

(* no redeclaration of an inherited operation *)
Theorem shadow_errors_iff p i : shadow_errors p i = [] <-> forall o, In o (i_ops i) -> ~ In (o_name o) (inherited_op_names p i).
Proof.
  apply flat_map_nil_pointwise. intros o _. rewrite flat_map_nil_In. split.
  - intros H Hin. specialize (H _ Hin). rewrite Nat.eqb_refl in H. discriminate.
  - intros H n Hn. destruct (Nat.eqb_spec (o_name o) n) as [E|]; [destruct H; rewrite E; exact Hn|reflexivity].
Qed.

Definition types_ok (p : program) (ms : list member) : Prop :=
  forall m k, In m ms -> In k (dict_keys (m_ty m)) -> key_error p (S (length p)) k = None.
Lemma members_type_errors_iff p ms : members_type_errors p ms = [] <-> types_ok p ms.
Proof.
  unfold members_type_errors, types_ok. rewrite flat_map_nil_In. split.
  - intros H m k Hm. apply dict_errors_iff. auto.
  - intros H m Hm. apply dict_errors_iff. intros k. apply H. exact Hm.
Qed.
Definition def_ok (p : program) (d : def) : Prop :=
  match d with
  | DS _ s => struct_ok s /\ members_ok (s_fields s) /\ types_ok p (s_fields s)
  | DE _ e => enum_ok e /\ forall en, In en (ed_ens e) -> members_ok (en_field_list en) /\ types_ok p (en_field_list en)
  | DI _ i => (forall o, In o (i_ops i) -> ~ In (o_name o) (inherited_op_names p i)) /\
              forall o, In o (i_ops i) -> members_ok (o_params o) /\ members_ok (o_rets o) /\ stream_ok (o_params o) /\ stream_ok (o_rets o)
                                         /\ types_ok p (o_params o) /\ types_ok p (o_rets o)
  | DC _ => True
  | DA _ t => opt_of t = false /\ forall k, In k (dict_keys t) -> key_error p (S (length p)) k = None
  end.
Theorem validate_def_iff p d : validate_def p d = [] <-> def_ok p d.
Proof.
  destruct d as [id s|id e|id i|n|n t]; cbn [validate_def def_ok].
  - apply app_nil_and; [apply validate_struct_iff|]. apply app_nil_and; [apply validate_members_iff|apply members_type_errors_iff].
  - apply app_nil_and; [apply validate_enum_iff|]. apply flat_map_nil_pointwise. intros en _.
    apply app_nil_and; [apply validate_members_iff|apply members_type_errors_iff].
  - apply app_nil_and; [apply shadow_errors_iff|]. apply flat_map_nil_pointwise. intros o _.
    apply app_nil_and; [apply validate_members_iff|]. apply app_nil_and; [apply validate_members_iff|].
    apply app_nil_and; [apply validate_parameters_iff|]. apply app_nil_and; [apply validate_parameters_iff|].
    apply app_nil_and; apply members_type_errors_iff.
  - tauto.
  - apply app_nil_and; [apply if_nil_iff; discriminate|apply dict_errors_iff].
Qed.

Definition names_ok (p : program) : Prop :=
  NoDup (map def_name p) /\
  forall d, In d p ->
    match d with
    | DS _ s => NoDup (names_of (s_fields s))
    | DI _ i => NoDup (map o_name (i_ops i)) /\ forall o, In o (i_ops i) -> NoDup (names_of (o_params o)) /\ NoDup (names_of (o_rets o))
    | DE _ e => NoDup (map en_name (ed_ens e)) /\ forall en fs, In en (ed_ens e) -> en_fields en = Some fs -> NoDup (names_of fs)
    | _ => True
    end.
Theorem redefinition_errors_iff p : redefinition_errors p = [] <-> names_ok p.
Proof.
  unfold redefinition_errors, names_ok. apply app_nil_and; [apply names_unique_iff|]. apply flat_map_nil_pointwise.
  intros d _. destruct d as [id s|id e|id i|n|n t]; try tauto.
  - apply names_unique_iff.
  - apply app_nil_and; [apply names_unique_iff|]. rewrite flat_map_nil_In. split; intros H en.
    + intros fs Hen Hfs. specialize (H en Hen). rewrite Hfs in H. apply names_unique_iff, H.
    + intros Hen. destruct (en_fields en) as [fs|] eqn:E; [|reflexivity]. apply names_unique_iff, (H en fs Hen E).
  - apply app_nil_and; [apply names_unique_iff|]. apply flat_map_nil_pointwise. intros o _. apply app_nil_and; apply names_unique_iff.
Qed.

Definition syntax_ok (p : program) : Prop :=
  (forall d ms m t, In d p -> In ms (all_member_lists d) -> In m ms -> m_tag m = Some t -> in_range tag_bounds t = true) /\
  (forall id i o, In (DI id i) p -> In o (i_ops i) -> o_tuple o = true -> (2 <= length (o_rets o))%nat).
Theorem parse_errors_iff p : parse_errors p = [] <-> syntax_ok p.
Proof.
  unfold parse_errors, syntax_ok, tag_range_errors. apply app_nil_and.
  - repeat setoid_rewrite flat_map_nil_In. split.
    + intros H d ms m t Hd Hms Hm Ht. specialize (H d Hd ms Hms m Hm). rewrite Ht in H. destruct (in_range tag_bounds t); [reflexivity|discriminate].
    + intros H d Hd ms Hms m Hm. destruct (m_tag m) as [t|] eqn:Et; [|reflexivity]. rewrite (H d ms m t Hd Hms Hm Et). reflexivity.
  - rewrite flat_map_nil_In. split.
    + intros H id i o Hd Ho Ht. specialize (H _ Hd). cbn beta iota in H. rewrite flat_map_nil_In in H. specialize (H o Ho). rewrite Ht in H.
      destruct (Nat.ltb_spec (length (o_rets o)) 2); [discriminate|assumption].
    + intros H [id s|id e|id i|n|n t] Hd; try reflexivity. apply flat_map_nil_In. intros o Ho. destruct (o_tuple o) eqn:Et; [|reflexivity]. cbn [andb].
      destruct (Nat.ltb_spec (length (o_rets o)) 2) as [L|]; [|reflexivity]. destruct (Nat.lt_irrefl _ (Nat.lt_le_trans _ _ _ L (H id i o Hd Ho Et))).
Qed.

Definition well_formed (p : program) : Prop := syntax_ok p /\ names_ok p /\ forall d, In d p -> def_ok p d.
(* C04: accepted (no error) exactly when every rule of the catalogue holds *)
Theorem accept_iff_well_formed p : check p = [] <-> well_formed p.
Proof.
  unfold check, well_formed, validator_errors. rewrite !gate_nil_iff, parse_errors_iff, redefinition_errors_iff.
  rewrite (flat_map_nil_pointwise _ (def_ok p)) by (intros d _; apply validate_def_iff). reflexivity.
Qed.
