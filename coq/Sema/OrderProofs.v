(* Order independence (C15): the verdict of the rule catalogue does not depend on the order in which the definitions (hence
   the files) are presented, as long as definitions have distinct identities. *)
From Coq Require Import List Arith Permutation.
From SliceV Require Import Base.ListFacts Gen.NumericBounds Sema.Validate Sema.WellFormed.
Import ListNotations.

Definition struct_ids (p : program) : list nat := flat_map (fun d => match d with DS i _ => [i] | _ => [] end) p.
Definition enum_ids (p : program) : list nat := flat_map (fun d => match d with DE i _ => [i] | _ => [] end) p.
Definition iface_ids (p : program) : list nat := flat_map (fun d => match d with DI i _ => [i] | _ => [] end) p.
Definition distinct_ids (p : program) : Prop := NoDup (struct_ids p) /\ NoDup (enum_ids p) /\ NoDup (iface_ids p).

(* find_struct, find_enum and find_iface at once: [sel] tells the kind, [find] is the finder, [idof] gives the identities it ranges over *)
Section Find.
  Context {X : Type} (sel : def -> option (nat * X)) (find : program -> nat -> option X) (idof : def -> list nat).
  Hypothesis find_cons : forall d r id,
    find (d :: r) id = match sel d with Some (i, x) => if Nat.eqb i id then Some x else find r id | None => find r id end.
  Hypothesis idof_sel : forall d, idof d = match sel d with Some (i, _) => [i] | None => [] end.

  Lemma find_perm p p' id : Permutation p p' -> NoDup (flat_map idof p) -> find p id = find p' id.
  Proof.
    induction 1 as [|d p p' HP IH|d e p|p p' p'' HP1 IH1 HP2 IH2]; intros ND.
    - reflexivity.
    - rewrite !find_cons, IH; [reflexivity|]. cbn [flat_map] in ND. rewrite idof_sel in ND. destruct (sel d) as [[i x]|]; [apply NoDup_cons_iff in ND as [_ ND]|]; exact ND.
    - rewrite !find_cons. cbn [flat_map] in ND. rewrite !idof_sel in ND. destruct (sel d) as [[i x]|], (sel e) as [[j y]|]; try reflexivity.
      destruct (Nat.eqb_spec i id) as [->|], (Nat.eqb_spec j id) as [->|]; try reflexivity.
      apply NoDup_cons_iff in ND as [Hn _]. destruct Hn. left. reflexivity.
    - rewrite IH1, IH2; [reflexivity| |exact ND]. eapply Permutation_NoDup; [apply Permutation_flat_map; exact HP1|exact ND].
  Qed.
End Find.

Lemma distinct_ids_perm p p' : Permutation p p' -> distinct_ids p -> distinct_ids p'.
Proof. intros HP (A & B & C). repeat split; (eapply Permutation_NoDup; [apply Permutation_flat_map; exact HP|assumption]). Qed.

Section Perm.
  Variables p p' : program.
  Hypothesis HP : Permutation p p'.
  Hypothesis HD : distinct_ids p.
  Lemma fs_eq id : find_struct p id = find_struct p' id.
  Proof.
    refine (find_perm (fun d => match d with DS i s => Some (i, s) | _ => None end) find_struct _ _ _ p p' id HP (proj1 HD));
      [intros [] ? ?; reflexivity|intros []; reflexivity].
  Qed.
  Lemma fe_eq id : find_enum p id = find_enum p' id.
  Proof.
    refine (find_perm (fun d => match d with DE i e => Some (i, e) | _ => None end) find_enum _ _ _ p p' id HP (proj1 (proj2 HD)));
      [intros [] ? ?; reflexivity|intros []; reflexivity].
  Qed.
  Lemma fi_eq id : find_iface p id = find_iface p' id.
  Proof.
    refine (find_perm (fun d => match d with DI i x => Some (i, x) | _ => None end) find_iface _ _ _ p p' id HP (proj2 (proj2 HD)));
      [intros [] ? ?; reflexivity|intros []; reflexivity].
  Qed.
  Lemma key_error_eq : forall fuel t, key_error p fuel t = key_error p' fuel t.
  Proof.
    induction fuel as [|f IH]; intros [o ty]; cbn [key_error]; [reflexivity|]. destruct o; [reflexivity|].
    destruct ty as [q|id|id| |e|k v|s f0]; try reflexivity.
    - rewrite <- fs_eq. destruct (find_struct p id) as [s|]; [|reflexivity]. destruct (negb (s_compact s)); [reflexivity|].
      induction (s_fields s) as [|m l IHl]; cbn [existsb]; [reflexivity|]. rewrite IH. destruct (key_error p' f (m_ty m)); [reflexivity|exact IHl].
    - rewrite <- fe_eq. reflexivity.
  Qed.
  Lemma all_bases_eq : forall fuel ids, all_bases p fuel ids = all_bases p' fuel ids.
  Proof.
    induction fuel as [|f IH]; intros ids; cbn [all_bases]; [reflexivity|]. apply flat_map_ext. intros id. rewrite <- fi_eq.
    destruct (find_iface p id); [rewrite IH; reflexivity|reflexivity].
  Qed.
  Lemma inherited_eq i : inherited_op_names p i = inherited_op_names p' i.
  Proof.
    unfold inherited_op_names. rewrite <- (Permutation_length HP), <- all_bases_eq. apply flat_map_ext. intros id. rewrite <- fi_eq. reflexivity.
  Qed.
  Lemma key_check_eq k : key_error p (S (length p)) k = None <-> key_error p' (S (length p')) k = None.
  Proof. rewrite <- (Permutation_length HP), <- key_error_eq. reflexivity. Qed.
  Lemma types_ok_eq ms : types_ok p ms <-> types_ok p' ms.
  Proof. split; intros H m k Hm Hk; apply key_check_eq, (H m k Hm Hk). Qed.
  (* a definition's rules mention the program only through inherited_op_names, its length and key_error *)
  Lemma def_ok_eq d : def_ok p d <-> def_ok p' d.
  Proof.
    destruct d as [id s|id e|id i|n|n t]; cbn [def_ok].
    - rewrite types_ok_eq. reflexivity.
    - apply and_iff_compat_l, forall_In_iff. intros en _. rewrite types_ok_eq. reflexivity.
    - rewrite inherited_eq. apply and_iff_compat_l, forall_In_iff. intros o _. rewrite !types_ok_eq. reflexivity.
    - reflexivity.
    - apply and_iff_compat_l, forall_In_iff. intros k _. apply key_check_eq.
  Qed.
  Lemma well_formed_perm : well_formed p -> well_formed p'.
  Proof.
    assert (back : forall d, In d p' -> In d p) by (intros d; apply Permutation_in, Permutation_sym, HP).
    intros ((S1 & S2) & (N1 & N2) & D). split; [split|split; [split|]].
    - intros d ms m t Hd. apply (S1 d ms m t), back, Hd.
    - intros id i o Hd. apply (S2 id i o), back, Hd.
    - eapply Permutation_NoDup; [apply Permutation_map; exact HP|exact N1].
    - intros d Hd. apply N2, back, Hd.
    - intros d Hd. apply def_ok_eq, D, back, Hd.
  Qed.
End Perm.

Theorem acceptance_order_independent p p' : Permutation p p' -> distinct_ids p -> (check p = [] <-> check p' = []).
Proof.
  intros HP HD. rewrite !accept_iff_well_formed.
  split; apply well_formed_perm; [exact HP|exact HD|apply Permutation_sym, HP|exact (distinct_ids_perm p p' HP HD)].
Qed.
