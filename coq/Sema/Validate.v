(* Language-rule validation (C04): parse-time checks (tag range, return tuples), the redefinition pass and the
   ValidatorVisitor of slicec/src/validators/*.rs, on resolved programs (type references already bound, aliases
   expanded, no containment or inheritance cycle).  Each check emits the number of its error code (12 = E012).
   Model only; the declarative rule catalogue is Sema/WellFormed.v. *)
From Coq Require Import List Bool Arith ZArith Sorting Orders.
From SliceV Require Import Gen.NumericBounds.
Import ListNotations.

Inductive rty := RPrim (p : nat) | RStruct (id : nat) | REnum (id : nat) | RCustom
               | RSeq (e : rtyref) | RDict (k v : rtyref) | RRes (s f : rtyref)
with rtyref := RT (opt : bool) (t : rty).
Record member := { m_name : nat; m_tag : option Z; m_ty : rtyref; m_stream : bool }.
Record sdef := { s_name : nat; s_compact : bool; s_fields : list member }.
Record enr := { en_name : nat; en_value : Z; en_fields : option (list member) }.
Record edef := { ed_name : nat; ed_compact : bool; ed_unchecked : bool; ed_under : option (nat * bool); ed_ens : list enr }.
(* o_tuple: the return type was written as a parenthesised list *)
Record odef := { o_name : nat; o_params : list member; o_rets : list member; o_tuple : bool }.
Record idef := { i_name : nat; i_bases : list nat; i_ops : list odef }.
Inductive def := DS (id : nat) (s : sdef) | DE (id : nat) (e : edef) | DI (id : nat) (i : idef) | DC (name : nat) | DA (name : nat) (t : rtyref).
Definition program := list def.
Definition code := nat.

Fixpoint find_struct (p : program) (id : nat) : option sdef :=
  match p with [] => None | DS i s :: r => if Nat.eqb i id then Some s else find_struct r id | _ :: r => find_struct r id end.
Fixpoint find_enum (p : program) (id : nat) : option edef :=
  match p with [] => None | DE i e :: r => if Nat.eqb i id then Some e else find_enum r id | _ :: r => find_enum r id end.
Fixpoint find_iface (p : program) (id : nat) : option idef :=
  match p with [] => None | DI i x :: r => if Nat.eqb i id then Some x else find_iface r id | _ :: r => find_iface r id end.

Definition opt_of (t : rtyref) : bool := match t with RT o _ => o end.
Definition is_tagged (m : member) : bool := match m_tag m with Some _ => true | None => false end.
Definition memn (x : nat) (l : list nat) : bool := existsb (Nat.eqb x) l.

(* phase 1: what the parser itself checks *)
Definition in_range (b : Z * Z) (v : Z) : bool := (fst b <=? v)%Z && (v <=? snd b)%Z.
Definition tag_range_errors (ms : list member) : list code :=
  flat_map (fun m => match m_tag m with Some t => if in_range tag_bounds t then [] else [21] | None => [] end) ms.
Definition all_member_lists (d : def) : list (list member) :=
  match d with
  | DS _ s => [s_fields s]
  | DE _ e => flat_map (fun en => match en_fields en with Some fs => [fs] | None => [] end) (ed_ens e)
  | DI _ i => flat_map (fun o => [o_params o; o_rets o]) (i_ops i)
  | _ => []
  end.
Definition parse_errors (p : program) : list code :=
  flat_map (fun d => flat_map tag_range_errors (all_member_lists d)) p ++
  flat_map (fun d => match d with
                     | DI _ i => flat_map (fun o => if o_tuple o && Nat.ltb (length (o_rets o)) 2 then [14] else []) (i_ops i)
                     | _ => [] end) p.

(* phase 2: redefinitions (one E010 for every later definition of a name already seen in its scope) *)
Fixpoint redefs (seen : list nat) (names : list nat) : list code :=
  match names with [] => [] | n :: r => (if memn n seen then [10] else []) ++ redefs (if memn n seen then seen else n :: seen) r end.
Definition def_name (d : def) : nat :=
  match d with DS _ s => s_name s | DE _ e => ed_name e | DI _ i => i_name i | DC n => n | DA n _ => n end.
Definition names_of (ms : list member) : list nat := map m_name ms.
Definition redefinition_errors (p : program) : list code :=
  redefs [] (map def_name p) ++
  flat_map (fun d => match d with
    | DS _ s => redefs [] (names_of (s_fields s))
    | DI _ i => redefs [] (map o_name (i_ops i)) ++ flat_map (fun o => redefs [] (names_of (o_params o)) ++ redefs [] (names_of (o_rets o))) (i_ops i)
    | DE _ e => redefs [] (map en_name (ed_ens e)) ++
                flat_map (fun en => match en_fields en with Some fs => redefs [] (names_of fs) | None => [] end) (ed_ens e)
    | _ => [] end) p.

(* phase 3: the validators *)
(* members.rs: tags_have_optional_types, tags_are_unique (stable sort by tag, then neighbours) *)
Module ZOrder <: TotalLeBool.
  Definition t := Z.
  Definition leb := Z.leb.
  Theorem leb_total : forall a b, leb a b = true \/ leb b a = true.
  Proof. intros a b. unfold leb. destruct (Z.leb_spec a b); [left; reflexivity|right; apply Z.leb_le; apply Z.lt_le_incl; assumption]. Qed.
End ZOrder.
Module ZSort := Sort ZOrder.
Fixpoint adjacent_dups (l : list Z) : list code :=
  match l with a :: ((b :: _) as r) => (if Z.eqb a b then [12] else []) ++ adjacent_dups r | _ => [] end.
Definition tags_of (ms : list member) : list Z := flat_map (fun m => match m_tag m with Some t => [t] | None => [] end) ms.
Definition validate_members (ms : list member) : list code :=
  flat_map (fun m => if is_tagged m && negb (opt_of (m_ty m)) then [16] else []) ms ++ adjacent_dups (ZSort.sort (tags_of ms)).

(* dictionary.rs: check_dictionary_key_type; fuel bounds the descent through compact key structs *)
Definition prim_is_integral (p : nat) : bool := memn p prim_integral.
Fixpoint key_error (p : program) (fuel : nat) (t : rtyref) : option code :=
  match fuel with O => Some 5 | S f =>
  match t with RT opt ty =>
    if opt then Some 3 else
    match ty with
    | RStruct id =>
      match find_struct p id with
      | None => Some 5
      | Some s => if negb (s_compact s) then Some 4
                  else if existsb (fun m => match key_error p f (m_ty m) with Some _ => true | None => false end) (s_fields s) then Some 6 else None
      end
    | REnum id => match find_enum p id with Some e => (match ed_under e with None => Some 5 | Some _ => None end) | None => Some 5 end
    | RCustom => None
    | RRes _ _ | RSeq _ | RDict _ _ => Some 5
    | RPrim q => if prim_is_integral q || Nat.eqb q 0 || Nat.eqb q 15 then None else Some 5
    end
  end end.
(* visit_type_ref: every dictionary reachable in a visited type has its key checked *)
Fixpoint dict_errors (p : program) (t : rtyref) : list code :=
  match t with RT _ ty =>
    match ty with
    | RSeq e => dict_errors p e
    | RDict k v => (match key_error p (S (length p)) k with Some c => [c] | None => [] end) ++ dict_errors p k ++ dict_errors p v
    | RRes s f => dict_errors p s ++ dict_errors p f
    | _ => []
    end
  end.
Definition members_type_errors (p : program) (ms : list member) : list code := flat_map (fun m => dict_errors p (m_ty m)) ms.

(* structs.rs *)
Definition validate_struct (s : sdef) : list code :=
  (if s_compact s && Nat.eqb (length (s_fields s)) 0 then [18] else []) ++
  (if s_compact s then flat_map (fun m => if is_tagged m then [15] else []) (s_fields s) else []).

(* enums.rs *)
Definition bounds_of (e : edef) : option (Z * Z) :=
  match ed_under e with
  | Some (q, _) => match find (fun x => Nat.eqb (fst x) q) prim_bounds with Some (_, b) => Some b | None => None end
  | None => Some enum_default_bounds
  end.
Fixpoint dup_values (seen : list Z) (vs : list Z) : list code :=
  match vs with [] => [] | v :: r => if existsb (Z.eqb v) seen then 22 :: dup_values seen r else dup_values (v :: seen) r end.
Definition en_field_list (en : enr) : list member := match en_fields en with Some fs => fs | None => [] end.
Definition validate_enum (e : edef) : list code :=
  (match bounds_of e with Some b => flat_map (fun en => if in_range b (en_value en) then [] else [20]) (ed_ens e) | None => [] end) ++
  (match ed_under e with Some (q, _) => if prim_is_integral q then [] else [9] | None => [] end) ++
  dup_values [] (map en_value (ed_ens e)) ++
  (match ed_under e with Some (_, true) => [7] | _ => [] end) ++
  (if negb (ed_unchecked e) && Nat.eqb (length (ed_ens e)) 0 then [8] else []) ++
  (if ed_compact e then (match ed_under e with Some _ => [36] | None => [] end) ++ (if ed_unchecked e then [36] else []) else []) ++
  (if ed_compact e then flat_map (fun en => flat_map (fun m => if is_tagged m then [15] else []) (en_field_list en)) (ed_ens e) else []) ++
  (match ed_under e with Some _ => flat_map (fun en => match en_fields en with Some _ => [35] | None => [] end) (ed_ens e) | None => [] end).

(* parameters.rs *)
Definition validate_parameters (ms : list member) : list code :=
  flat_map (fun m => if m_stream m then [13] else []) (removelast ms) ++
  (let st := filter m_stream ms in if Nat.ltb 1 (length st) then map (fun _ => 29) (removelast st) else []).

(* identifiers.rs: an operation may not have the name of an inherited one *)
Fixpoint all_bases (p : program) (fuel : nat) (ids : list nat) : list nat :=
  match fuel with O => [] | S f =>
    flat_map (fun id => id :: match find_iface p id with Some i => all_bases p f (i_bases i) | None => [] end) ids
  end.
Definition inherited_op_names (p : program) (i : idef) : list nat :=
  flat_map (fun id => match find_iface p id with Some b => map o_name (i_ops b) | None => [] end) (nodup Nat.eq_dec (all_bases p (S (length p)) (i_bases i))).
Definition shadow_errors (p : program) (i : idef) : list code :=
  flat_map (fun o => flat_map (fun n => if Nat.eqb (o_name o) n then [11] else []) (inherited_op_names p i)) (i_ops i).

Definition validate_def (p : program) (d : def) : list code :=
  match d with
  | DS _ s => validate_struct s ++ validate_members (s_fields s) ++ members_type_errors p (s_fields s)
  | DE _ e => validate_enum e ++ flat_map (fun en => validate_members (en_field_list en) ++ members_type_errors p (en_field_list en)) (ed_ens e)
  | DI _ i => shadow_errors p i ++
              flat_map (fun o => validate_members (o_params o) ++ validate_members (o_rets o) ++
                                 validate_parameters (o_params o) ++ validate_parameters (o_rets o) ++
                                 members_type_errors p (o_params o) ++ members_type_errors p (o_rets o)) (i_ops i)
  | DC _ => []
  | DA _ t => (if opt_of t then [34] else []) ++ dict_errors p t
  end.
Definition validator_errors (p : program) : list code := flat_map (validate_def p) p.

(* the whole pipeline after type patching and cycle detection, with its gating *)
Definition check (p : program) : list code :=
  match parse_errors p with
  | (_ :: _) as e => e
  | [] => match redefinition_errors p with
          | (_ :: _) as e => e
          | [] => validator_errors p
          end
  end.
