From Coq Require Import List Bool Arith Lia Relations.
From SliceV Require Import Base.ListFacts Sema.Cyc Sema.CycProofs Sema.CyclesProg.
Import ListNotations.

Lemma targets_mentions t n : In n (targets t) <-> mentions t n.
Proof.
  split.
  - induction t as [| |k|e IH|k IHk v IHv|s IHs f IHf]; cbn [targets]; rewrite ?in_app_iff.
    1,2: intros [].
    + intros [<-|[]]. constructor.
    + intros H. constructor. auto.
    + intros [H|H]; [apply m_key|apply m_val]; auto.
    + intros [H|H]; [apply m_ok|apply m_err]; auto.
  - induction 1; cbn [targets In]; rewrite ?in_app_iff; auto.
Qed.
Lemma edge_contains p a b : edge (succ_of p) a b <-> contains p a b.
Proof.
  unfold edge, succ_of, contains. destruct (nth_error p a) as [d|].
  - rewrite in_flat_map. split; [intros (f & Hf & H); exists d, f|intros (d' & f & [= <-] & Hf & H); exists f]; rewrite targets_mentions in *; auto.
  - split; [intros []|intros (d & f & [=] & _)].
Qed.
Lemma clos_mono (R1 R2 : nat -> nat -> Prop) : (forall a b, R1 a b -> R2 a b) -> forall a b, clos_trans nat R1 a b -> clos_trans nat R2 a b.
Proof. intros H a b C. induction C; [apply t_step, H; assumption|eapply t_trans; eassumption]. Qed.
Lemma on_cycle_iff p v : on_cycle (succ_of p) v <-> on_containment_cycle p v.
Proof. split; apply clos_mono; intros a b; apply edge_contains. Qed.

(* every reported chain is a real path of containment links from the named type back to itself *)
Theorem detect_prog_sound p : Forall (fun r => walk (succ_of p) (fst r) (snd r) /\ last (snd r) (fst r) = fst r /\ snd r <> []
                                               /\ on_containment_cycle p (fst r)) (detect_prog p).
Proof.
  eapply Forall_impl; [|apply detect_sound]. intros r G. pose proof (good_on_cycle _ _ G) as C. apply on_cycle_iff in C.
  destruct G as (W & L & NE). auto.
Qed.
(* every link of a reported chain is witnessed by a field of the previous type *)
Lemma chain_fields_some p a q : walk (succ_of p) a q -> Forall (fun o => o <> None) (chain_fields p a q).
Proof.
  revert a. induction q as [|b q IH]; intros a W; cbn [chain_fields]; constructor; [|apply IH, W].
  destruct W as [E _]. unfold edge, succ_of in E. unfold link_field.
  destruct (nth_error p a) as [d|]; [|destruct E]. apply in_flat_map in E as (f & Hf & Hin).
  destruct (find _ (fields_of d)) eqn:Ef; [discriminate|]. apply (find_none _ _ Ef) in Hf. cbv beta in Hf. apply (existsb_eqb_In Nat.eqb Nat.eqb_eq) in Hin. congruence.
Qed.

Lemma univ_closed_prog p : well_scoped p -> forall a b, edge (succ_of p) a b -> In b (seq 0 (length p)).
Proof.
  intros WS a b E. apply edge_contains in E as (d & f & Hn & Hf & Hm). apply in_seq. split; [apply Nat.le_0_l|]. cbn.
  unfold well_scoped in WS. rewrite Forall_forall in WS. apply nth_error_In, WS in Hn. rewrite Forall_forall in Hn. apply Hn in Hf.
  induction Hm; cbn in Hf; tauto.
Qed.
(* every type lying on a containment cycle is named by a reported cycle *)
Theorem detect_prog_complete p v : well_scoped p -> v < length p -> on_containment_cycle p v ->
  exists r, In r (detect_prog p) /\ In v (snd r).
Proof.
  intros WS Hv Hc. apply (detect_complete (succ_of p) (seq 0 (length p)) (univ_closed_prog p WS)).
  - rewrite seq_length. apply Nat.le_succ_diag_r.
  - apply in_seq. lia.
  - apply on_cycle_iff, Hc.
Qed.
(* acyclic definitions are never diagnosed *)
Theorem detect_prog_none p : (forall v, ~ on_containment_cycle p v) -> detect_prog p = [].
Proof.
  intros H. pose proof (detect_prog_sound p) as S. destruct (detect_prog p) as [|r l]; [reflexivity|].
  apply Forall_inv in S. destruct (H (fst r)). apply S.
Qed.

Section Alias.
  Variable next : nat -> option nat.
  Variable univ : list nat.
  Hypothesis next_closed : forall a b, next a = Some b -> In b univ.

  (* the seen-list makes the walk terminate: fuel beyond the number of nodes is never exhausted *)
  Lemma resolve_terminates : forall fuel seen a, NoDup seen -> incl seen univ -> In a univ ->
    length univ < fuel + length seen -> resolve_alias next fuel seen a <> AFuel.
  Proof.
    induction fuel as [|f IH]; intros seen a ND Hinc Ha Hlen.
    - pose proof (NoDup_incl_length ND Hinc). lia.
    - cbn [resolve_alias]. destruct (existsb (Nat.eqb a) seen) eqn:E; [discriminate|].
      apply not_true_iff_false in E. rewrite (existsb_eqb_In Nat.eqb Nat.eqb_eq) in E.
      destruct (next a) as [b|] eqn:Eb; [|discriminate].
      apply IH; [constructor; assumption|exact (incl_cons Ha Hinc)|exact (next_closed a b Eb)|cbn [length]; lia].
  Qed.
  (* a chain resolves only to its end, a node with no successor *)
  Lemma resolve_ok_final : forall fuel seen a z, resolve_alias next fuel seen a = AOk z -> next z = None.
  Proof.
    induction fuel as [|f IH]; intros seen a z; cbn [resolve_alias]; [discriminate|].
    destruct (existsb (Nat.eqb a) seen); [discriminate|].
    destruct (next a) as [b|] eqn:E; [apply IH|intros [= <-]; exact E].
  Qed.
End Alias.

Lemma gsucc_closed g : gwell_scoped g -> forall a b, edge (gsucc g) a b -> In b (seq 0 (length g)).
Proof.
  intros WS a b E. unfold edge, gsucc in E. apply in_seq. split; [apply Nat.le_0_l|]. cbn.
  destruct (Nat.lt_ge_cases a (length g)) as [Ha|Ha]; [|rewrite nth_overflow in E by exact Ha; destruct E].
  unfold gwell_scoped in WS. rewrite Forall_forall in WS. apply (nth_In g []), WS in Ha. rewrite Forall_forall in Ha. apply Ha, E.
Qed.
(* a loop is reported exactly when some node reaches itself *)
Theorem gcyclic_iff g : gwell_scoped g -> (gcyclic g = true <-> exists v, v < length g /\ on_cycle (gsucc g) v).
Proof.
  intros WS. unfold gcyclic. split.
  - pose proof (detect_sound_roots (gsucc g) (S (length g)) (seq 0 (length g))) as S. fold (gdetect g) in S.
    destruct (gdetect g) as [|r l]; [discriminate|]. intros _. apply Forall_inv in S as [G R].
    exists (fst r). split; [apply in_seq in R; apply R|apply good_on_cycle, G].
  - intros (v & Hv & C).
    destruct (detect_complete (gsucc g) (seq 0 (length g)) (gsucc_closed g WS) (S (length g)) (seq 0 (length g)) v) as (r & Hr & _);
      [rewrite seq_length; apply Nat.le_succ_diag_r|apply in_seq; lia|exact C|].
    fold (gdetect g) in Hr. destruct (gdetect g); [destruct Hr|reflexivity].
Qed.
