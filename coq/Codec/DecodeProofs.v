(* C11: decoders are total, consume a non-empty prefix and nothing else, are strict about what they accept, and their cost
   is bounded by the length of the input. *)
From Coq Require Import List NArith ZArith Lia Bool.
From SliceV Require Import Base.Bytes Base.Utf8 Gen.VarintArms Codec.Wire Codec.WireProofs Codec.CollProofs Codec.Typed Codec.TypedProofs.
Import ListNotations.
Open Scope N_scope.

Definition consumes {A} (d : list byte -> dres A) : Prop :=
  forall bs v r, d bs = DOk v r -> exists pre, bs = pre ++ r /\ pre <> [].
Definition nofuel {A} (d : list byte -> dres A) : Prop := forall bs, d bs <> DErr EFuel.
(* what is asked of the decoders that follow a consuming one *)
Definition reads {A} (d : list byte -> dres A) : Prop :=
  forall bs v r, d bs = DOk v r -> exists pre, bs = pre ++ r.

Lemma consumes_len {A} (d : list byte -> dres A) bs v r : consumes d -> d bs = DOk v r -> (length r < length bs)%nat.
Proof. intros H E. destruct (H _ _ _ E) as (pre & -> & Hne). rewrite app_length. destruct pre; [congruence|cbn; lia]. Qed.
Lemma consumes_reads {A} (d : list byte -> dres A) : consumes d -> reads d.
Proof. intros H bs v r E. destruct (H _ _ _ E) as (pre & -> & _). eauto. Qed.

Lemma reads_bind {A B} (d : list byte -> dres A) (k : A -> list byte -> dres B) :
  reads d -> (forall a, reads (k a)) -> reads (fun bs => dbind (d bs) k).
Proof.
  intros Hd Hk bs v r H. apply dbind_ok in H as (a & r1 & E & H).
  destruct (Hd _ _ _ E) as (p1 & ->). destruct (Hk _ _ _ _ H) as (p2 & ->). exists (p1 ++ p2). apply app_assoc.
Qed.
Lemma consumes_bind {A B} (d : list byte -> dres A) (k : A -> list byte -> dres B) :
  consumes d -> (forall a, reads (k a)) -> consumes (fun bs => dbind (d bs) k).
Proof.
  intros Hd Hk bs v r H. apply dbind_ok in H as (a & r1 & E & H).
  destruct (Hd _ _ _ E) as (p1 & -> & Hne). destruct (Hk _ _ _ _ H) as (p2 & ->). exists (p1 ++ p2).
  split; [apply app_assoc|]. intros E'. apply app_eq_nil in E' as [E' _]. exact (Hne E').
Qed.
Lemma nofuel_bind {A B} (d : list byte -> dres A) (k : A -> list byte -> dres B) :
  nofuel d -> (forall a, nofuel (k a)) -> nofuel (fun bs => dbind (d bs) k).
Proof. intros Hd Hk bs. specialize (Hd bs). destruct (d bs) as [a r|e]; cbn [dbind]; [apply Hk|congruence]. Qed.

Lemma reads_ret {A} (v : A) : reads (DOk v).
Proof. intros bs v' r H. inversion H. exists []. reflexivity. Qed.
Lemma nofuel_ret {A} (v : A) : nofuel (DOk v).
Proof. intros bs. discriminate. Qed.
Lemma consumes_err {A} e : consumes (fun _ => @DErr A e).
Proof. intros bs v r H. discriminate. Qed.
Lemma nofuel_err {A} e : e <> EFuel -> nofuel (fun _ => @DErr A e).
Proof. intros He bs E. inversion E. contradiction. Qed.

Lemma reads_take {A} n (k : list byte -> list byte -> dres A) e : (forall s, reads (k s)) ->
  reads (fun bs => match take_n n bs with Some (s, r) => k s r | None => DErr e end).
Proof.
  intros Hk bs v r H. destruct (take_n n bs) as [[s r1]|] eqn:E; [|discriminate]. apply take_n_split in E as [-> _].
  destruct (Hk _ _ _ _ H) as (p & ->). exists (s ++ p). apply app_assoc.
Qed.
Lemma nofuel_take {A} n (k : list byte -> list byte -> dres A) e : e <> EFuel -> (forall s, nofuel (k s)) ->
  nofuel (fun bs => match take_n n bs with Some (s, r) => k s r | None => DErr e end).
Proof. intros He Hk bs. destruct (take_n n bs) as [[s r]|]; [apply Hk|congruence]. Qed.

(* dec_varuint, dec_varint: look at the first byte and go on from the same place *)
Lemma consumes_peek {A} (g : byte -> list byte -> dres A) e : (forall b, consumes (g b)) ->
  consumes (fun bs => match bs with [] => DErr e | b :: _ => g b bs end).
Proof. intros H [|b t] v r E; [discriminate|exact (H b _ _ _ E)]. Qed.
Lemma nofuel_peek {A} (g : byte -> list byte -> dres A) e : e <> EFuel -> (forall b, nofuel (g b)) ->
  nofuel (fun bs => match bs with [] => DErr e | b :: _ => g b bs end).
Proof. intros He H [|b t]; [congruence|apply H]. Qed.

Lemma dmap_ok {A B} (f : A -> B) r v rest : dmap f r = DOk v rest -> exists a, r = DOk a rest /\ v = f a.
Proof. destruct r; cbn [dmap]; intros H; inversion H; eauto. Qed.

(* The database `dec` holds one lemma for each way a decoder is put together (dbind, return, error, `match take_n`, a look
   at the first byte, `if` by cases) and, as they are proved, those of the decoders themselves.  It sees through dec_uint,
   dec_int (the fixed-width shape below), dec_size (dec_varuint) and dmap (a dbind that returns at once).  `eauto` counts
   in its depth every hint applied that leaves subgoals, over the whole derivation: the default 5 carries a chain of two
   dlets, and a depth is given where a decoder has more. *)
Create HintDb dec discriminated.
#[export] Hint Transparent dec_uint dec_int dec_size dmap : dec.
#[export] Hint Resolve consumes_reads reads_bind consumes_bind nofuel_bind reads_ret nofuel_ret consumes_err nofuel_err
  reads_take nofuel_take consumes_peek nofuel_peek : dec.
#[export] Hint Extern 1 (_ <> EFuel) => discriminate : dec.
Ltac case_if := match goal with |- _ (fun _ => if ?b then _ else _) => destruct b end.
#[export] Hint Extern 2 (consumes (fun _ => if _ then _ else _)) => case_if : dec.
#[export] Hint Extern 2 (reads (fun _ => if _ then _ else _)) => case_if : dec.
#[export] Hint Extern 2 (nofuel (fun _ => if _ then _ else _)) => case_if : dec.

Lemma dec_bool_consumes : consumes dec_bool.
Proof.
  intros [|b r] v r' H; cbn in H; [discriminate|]. exists [b]. split; [|discriminate].
  destruct (b =? 0); [|destruct (b =? 1)]; inversion H; reflexivity.
Qed.
Lemma dec_bool_nofuel : nofuel dec_bool.
Proof. intros [|b r]; cbn; [|destruct (b =? 0); [|destruct (b =? 1)]]; discriminate. Qed.

Lemma fixed_consumes {A} (f : list byte -> A) n : (0 < n)%nat ->
  consumes (fun bs => match take_exact n bs with Some (h, r) => DOk (f h) r | None => DErr EEob end).
Proof.
  intros Hn bs v r H. destruct (take_exact n bs) as [[h t]|] eqn:E; inversion H; subst.
  apply take_exact_split in E as [-> <-]. exists h. split; [reflexivity|]. intros ->. exact (Nat.lt_irrefl 0 Hn).
Qed.
Lemma fixed_nofuel {A} (f : list byte -> A) n :
  nofuel (fun bs => match take_exact n bs with Some (h, r) => DOk (f h) r | None => DErr EEob end).
Proof. intros bs. destruct (take_exact n bs) as [[h t]|]; discriminate. Qed.
#[export] Hint Resolve dec_bool_consumes dec_bool_nofuel fixed_consumes fixed_nofuel : dec.

Lemma dec_varuint_consumes : consumes dec_varuint.
Proof.
  apply consumes_peek. intros b. destruct (dec_width_masked b) as (n & [Hn _]%width_range & -> & _).
  (* Hn : 0 < n is what fixed_consumes asks for *) eauto with dec.
Qed.
Lemma dec_varint_consumes : consumes dec_varint.
Proof.
  apply consumes_peek. intros b. destruct (dec_width_masked b) as (n & [Hn _]%width_range & _ & ->). eauto with dec.
Qed.
Lemma dec_varuint_nofuel : nofuel dec_varuint.
Proof. apply nofuel_peek; [discriminate|]. intros b. destruct (dec_width_masked b) as (n & _ & -> & _). eauto with dec. Qed.
Lemma dec_varint_nofuel : nofuel dec_varint.
Proof. apply nofuel_peek; [discriminate|]. intros b. destruct (dec_width_masked b) as (n & _ & _ & ->). eauto with dec. Qed.
#[export] Hint Resolve dec_varuint_consumes dec_varint_consumes dec_varuint_nofuel dec_varint_nofuel : dec.
Lemma dec_size_len bs n r : dec_size bs = DOk n r -> (length r < length bs)%nat.
Proof. apply consumes_len, dec_varuint_consumes. Qed.

Lemma dec_varint_in_consumes lo hi : consumes (dec_varint_in lo hi).
Proof. unfold dec_varint_in. eauto with dec. Qed.
Lemma dec_varint_in_nofuel lo hi : nofuel (dec_varint_in lo hi).
Proof. unfold dec_varint_in. eauto with dec. Qed.
Lemma dec_str_consumes : consumes dec_str.
Proof. unfold dec_str. eauto with dec. Qed.
Lemma dec_str_nofuel : nofuel dec_str.
Proof. unfold dec_str. eauto with dec. Qed.
#[export] Hint Resolve dec_varint_in_consumes dec_varint_in_nofuel dec_str_consumes dec_str_nofuel : dec.

(* out-of-range variable-width integers are refused, not truncated *)
Theorem varint_range_strict lo hi bs z r : dec_varint_in lo hi bs = DOk z r -> (lo <= z <= hi)%Z.
Proof.
  unfold dec_varint_in. intros H. apply dbind_ok in H as (v & r' & _ & H).
  destruct ((lo <=? v)%Z && (v <=? hi)%Z) eqn:E; inversion H; subst.
  apply andb_true_iff in E as [E1 E2]. split; apply Z.leb_le; assumption.
Qed.
Theorem varuint_range_strict mx bs v r : dec_varuint_max mx bs = DOk v r -> v <= mx.
Proof.
  unfold dec_varuint_max. intros H. apply dbind_ok in H as (x & r' & _ & H).
  destruct (N.leb_spec x mx); inversion H; subst. assumption.
Qed.

Section Items.
  Context {A : Type} (d : list byte -> dres A).
  Hypothesis Hc : consumes d.
  Hypothesis Hf : nofuel d.

  Lemma dec_items_reads f : forall n, reads (dec_items d f n).
  Proof. induction f as [|f IH]; intros n; cbn [dec_items]; eauto with dec. Qed.

  (* every round takes at least one byte: fuel beyond the length of the input is never used up, and there are
     no more elements than bytes read *)
  Lemma dec_items_spec : forall fuel count bs, (length bs < fuel)%nat ->
    dec_items d fuel count bs <> DErr EFuel /\
    forall l r, dec_items d fuel count bs = DOk l r -> (length l + length r <= length bs)%nat.
  Proof.
    induction fuel as [|f IH]; intros count bs Hlen; [lia|].
    cbn [dec_items]. destruct (count =? 0).
    { split; [discriminate|]. intros l r H; inversion H; subst. reflexivity. }
    pose proof (Hf bs) as Hfb.
    destruct (d bs) as [x r1|e] eqn:E; cbn [dbind]; [|split; [congruence|discriminate]].
    apply (consumes_len d _ _ _ Hc) in E.
    destruct (IH (count - 1) r1 ltac:(lia)) as [Hnf Hok].
    destruct (dec_items d f (count - 1) r1) as [xs r2|e]; cbn [dbind]; [|split; [congruence|discriminate]].
    split; [discriminate|]. intros l r H; inversion H; subst. specialize (Hok _ _ eq_refl). cbn [length]. lia.
  Qed.

  (* Hf is not needed here: it is taken so that dec_seq_consumes and dec_seq_nofuel ask the same of the element decoder *)
  Lemma dec_seq_consumes : consumes (dec_seq d).
  Proof using Hc Hf.
    unfold dec_seq. apply consumes_bind; [exact dec_varuint_consumes|]. intros n bs. apply dec_items_reads.
  Qed.
  Lemma dec_seq_nofuel : nofuel (dec_seq d).
  Proof. unfold dec_seq. apply nofuel_bind; [exact dec_varuint_nofuel|]. intros n bs. apply dec_items_spec. lia. Qed.
  (* the loop cannot run more often than there are bytes: time is governed by the input, not by the announced size *)
  Theorem dec_seq_length_bound bs l r : dec_seq d bs = DOk l r -> (length l < length bs)%nat.
  Proof.
    intros H. unfold dec_seq in H. apply dbind_ok in H as (n & r1 & E%dec_size_len & H).
    destruct (dec_items_spec (S (length r1)) n r1 ltac:(lia)) as [_ Hok]. specialize (Hok _ _ H). lia.
  Qed.
End Items.
(* what is reserved before the loop never exceeds the bytes that remain *)
Theorem seq_reservation_bounded bs n : seq_reservation bs = Some n -> n <= N.of_nat (length bs).
Proof.
  unfold seq_reservation. destruct (dec_size bs) as [k r|] eqn:E; [|discriminate]. apply dec_size_len in E.
  intros Hs; inversion Hs; subst. lia.
Qed.
Theorem str_reservation_bounded bs n : str_reservation bs = Some n -> n <= N.of_nat (length bs).
Proof.
  unfold str_reservation. destruct (dec_size bs) as [k r|] eqn:E; [|discriminate]. apply dec_size_len in E.
  destruct (N.leb_spec k (N.of_nat (length r))); intros Hs; inversion Hs; subst; lia.
Qed.

Section Entries.
  Context {K V : Type} (keq : K -> K -> bool) (dk : list byte -> dres K) (dv : list byte -> dres V).
  Hypothesis Hck : consumes dk. Hypothesis Hfk : nofuel dk.
  Hypothesis Hcv : consumes dv. Hypothesis Hfv : nofuel dv.
  Lemma dec_pair_consumes : consumes (dec_pair dk dv).
  Proof. unfold dec_pair. eauto with dec. Qed.
  Lemma dec_pair_nofuel : nofuel (dec_pair dk dv).
  Proof. unfold dec_pair. eauto with dec. Qed.
  Lemma dec_dict_consumes : consumes (dec_dict keq dk dv).
  Proof.
    intros bs l r H. apply dec_dict_ok in H as [H _]. exact (dec_seq_consumes _ dec_pair_consumes dec_pair_nofuel _ _ _ H).
  Qed.
  Lemma dec_dict_nofuel : nofuel (dec_dict keq dk dv).
  Proof. intros bs E. exact (dec_seq_nofuel _ dec_pair_consumes dec_pair_nofuel bs (dec_dict_fuel _ _ _ _ E)). Qed.
  Theorem dec_dict_length_bound bs l r : dec_dict keq dk dv bs = DOk l r -> (length l < length bs)%nat.
  Proof.
    intros H. apply dec_dict_ok in H as [H _]. exact (dec_seq_length_bound _ dec_pair_consumes dec_pair_nofuel _ _ _ H).
  Qed.
End Entries.
#[export] Hint Resolve dec_seq_consumes dec_seq_nofuel dec_dict_consumes dec_dict_nofuel : dec.

Definition wf_pty (p : pty) : Prop := match p with PU n | PI n => (0 < n)%nat | _ => True end.
Fixpoint wf_ty (t : ty) : Prop :=
  match t with TP p => wf_pty p | TSeq t' => wf_ty t' | TDict k t' => wf_pty k /\ wf_ty t' end.

Lemma dec_p_ok p : wf_pty p -> consumes (dec_p p) /\ nofuel (dec_p p).
Proof. destruct p; cbn [wf_pty dec_p]; intros Hw; split; eauto with dec. Qed.
Theorem dec_val_total_prefix : forall t, wf_ty t -> consumes (dec_val t) /\ nofuel (dec_val t).
Proof.
  induction t as [p|t IH|k t IH]; cbn [wf_ty dec_val]; intros Hw.
  - destruct (dec_p_ok p Hw). split; eauto with dec.
  - destruct (IH Hw). split; eauto with dec.
  - destruct Hw as [Hk Ht]. destruct (IH Ht). destruct (dec_p_ok k Hk). split; eauto with dec.
Qed.

(* what a decoder accepts is a value of the type: strings are valid UTF-8, dictionary keys are unique (bools: bool_strict) *)
Definition accepted_p (v : pval) : Prop :=
  match v with KStr s => utf8_valid s = true | _ => True end.
Fixpoint accepted (t : ty) : val -> Prop :=
  match t with
  | TP _ => fun v => match v with VP x => accepted_p x | _ => False end
  | TSeq t' => fun v => match v with VSeq l => Forall (accepted t') l | _ => False end
  | TDict _ t' => fun v => match v with VDict l => NoDup (map fst l) /\ Forall (fun kv => accepted_p (fst kv) /\ accepted t' (snd kv)) l | _ => False end
  end.
Lemma dec_p_accepted p bs v r : dec_p p bs = DOk v r -> accepted_p v.
Proof.
  destruct p; cbn [dec_p]; intros H; apply dmap_ok in H as (a & E & ->); cbn [accepted_p]; auto.
  exact (str_strict _ _ _ E).
Qed.
Lemma dec_items_all {A} (d : list byte -> dres A) (P : A -> Prop) :
  (forall bs v r, d bs = DOk v r -> P v) -> forall fuel n bs l r, dec_items d fuel n bs = DOk l r -> Forall P l.
Proof.
  intros HP. induction fuel as [|f IH]; intros n bs l r; cbn [dec_items]; destruct (n =? 0); try discriminate.
  1,2: intros H; inversion H; constructor.
  intros H. apply dbind_ok in H as (x & r1 & E & H). apply dbind_ok in H as (xs & r2 & E2 & H). inversion H; subst.
  constructor; eauto.
Qed.
Lemma dec_seq_all {A} (d : list byte -> dres A) (P : A -> Prop) :
  (forall bs v r, d bs = DOk v r -> P v) -> forall bs l r, dec_seq d bs = DOk l r -> Forall P l.
Proof.
  intros HP bs l r H. unfold dec_seq in H. apply dbind_ok in H as (n & r1 & _ & H). exact (dec_items_all d P HP _ _ _ _ _ H).
Qed.
Theorem dec_val_strict : forall t bs v r, dec_val t bs = DOk v r -> accepted t v.
Proof.
  induction t as [p|t IH|k t IH]; intros bs v r H; cbn [dec_val] in H; apply dmap_ok in H as (a & E & ->); cbn [accepted].
  - exact (dec_p_accepted _ _ _ _ E).
  - exact (dec_seq_all _ _ IH _ _ _ E).
  - split; [exact (dict_keys_unique _ _ _ pval_eqb_refl _ _ _ E)|].
    apply dec_dict_ok in E as [E _]. eapply dec_seq_all; [|exact E].
    intros bs' kv r2 Hp. unfold dec_pair in Hp.
    apply dbind_ok in Hp as (k' & r3 & E1 & Hp). apply dbind_ok in Hp as (v' & r4 & E2 & Hp). inversion Hp; subst.
    split; [exact (dec_p_accepted _ _ _ _ E1)|exact (IH _ _ _ E2)].
Qed.

(* tagged-field skipping terminates within the input and never reads past it *)
Lemma skip_tagged_consumes f : consumes (skip_tagged f).
Proof. induction f as [|f IH]; cbn [skip_tagged]; eauto 8 with dec. Qed.
Lemma skip_tagged_nofuel : forall fuel bs, (length bs < fuel)%nat -> skip_tagged fuel bs <> DErr EFuel.
Proof.
  induction fuel as [|f IH]; intros bs Hl; [lia|]. cbn [skip_tagged]. unfold dec_size.
  pose proof (dec_varint_in_nofuel I32_MIN I32_MAX bs) as N1.
  destruct (dec_varint_in I32_MIN I32_MAX bs) as [t r|e] eqn:E; cbn [dbind]; [|congruence].
  apply (consumes_len _ _ _ _ (dec_varint_in_consumes _ _)) in E.
  destruct (t =? TAG_END_MARKER)%Z; [discriminate|].
  pose proof (dec_varuint_nofuel r) as N2. destruct (dec_varuint r) as [n r1|e] eqn:E1; cbn [dbind]; [|congruence].
  apply dec_size_len in E1.
  destruct (take_n n r1) as [[s r2]|] eqn:E2; [|discriminate]. apply take_n_split in E2 as [-> _].
  apply IH. rewrite app_length in E1. lia.
Qed.
Lemma skip_consumes : consumes skip_tagged_fields.
Proof. intros bs. apply skip_tagged_consumes. Qed.
Lemma skip_nofuel : nofuel skip_tagged_fields.
Proof. intros bs. apply skip_tagged_nofuel. lia. Qed.
#[export] Hint Resolve skip_consumes skip_nofuel : dec.
Theorem skip_tagged_fields_total bs : skip_tagged_fields bs <> DErr EFuel /\
  forall u r, skip_tagged_fields bs = DOk u r -> exists pre, bs = pre ++ r /\ pre <> [].
Proof. split; [apply skip_nofuel|apply skip_consumes]. Qed.
