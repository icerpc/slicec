(* Round trip of the typed values (C10): the primitives one by one, sequences and dictionaries through CollProofs. *)
From Coq Require Import List NArith ZArith Lia Bool.
From SliceV Require Import Base.Bytes Base.ListFacts Base.Utf8 Gen.VarintArms Codec.Wire Codec.WireProofs Codec.CollProofs Codec.Typed.
Import ListNotations.
Open Scope N_scope.

Lemma bytes_eqb_iff a b : bytes_eqb a b = true <-> a = b.
Proof. apply (eqb_list_iff N.eqb bytes_eqb N.eqb_eq). intros [|x a'] [|y b']; reflexivity. Qed.
Lemma bytes_eqb_eq a b : bytes_eqb a b = true -> a = b.
Proof. apply bytes_eqb_iff. Qed.
Lemma bytes_eqb_refl a : bytes_eqb a a = true.
Proof. apply bytes_eqb_iff. reflexivity. Qed.
Lemma pval_eqb_eq a b : pval_eqb a b = true -> a = b.
Proof.
  destruct a, b; cbn; try discriminate; intros H.
  - apply eqb_prop in H. congruence.
  - apply N.eqb_eq in H. congruence.
  - apply Z.eqb_eq in H. congruence.
  - apply bytes_eqb_eq in H. congruence.
Qed.
Lemma pval_eqb_refl a : pval_eqb a a = true.
Proof. destruct a; cbn; auto using eqb_reflx, N.eqb_refl, Z.eqb_refl, bytes_eqb_refl. Qed.

Lemma enc_p_roundtrip p v rest : wf_p p v ->
  exists b, enc_p p v = Some b /\ b <> [] /\ dec_p p (b ++ rest) = DOk v rest.
Proof.
  destruct p, v; cbn [wf_p enc_p dec_p]; try contradiction; intros H.
  - eexists; split; [reflexivity|]. rewrite bool_roundtrip. split; [discriminate|reflexivity].
  - destruct H as [Hn H]. eexists; split; [reflexivity|]. rewrite uint_roundtrip by exact H.
    split; [destruct n; [lia|discriminate]|reflexivity].
  - destruct H as [Hn H]. eexists; split; [reflexivity|]. rewrite int_roundtrip by assumption.
    split; [destruct n; [lia|discriminate]|reflexivity].
  - destruct (varuint_roundtrip v rest H) as (b & Hb & Hd). exists b. rewrite Hd. eauto using width_nonempty, varuint_length.
  - destruct (varint_roundtrip z rest H) as (b & Hb & Hd). exists b. rewrite Hd. eauto using width_nonempty, varint_length.
  - destruct H as (H1 & H2 & _). destruct (str_roundtrip s rest H1 H2) as (b & Hb & Hd). exists b. rewrite Hd.
    eauto using enc_str_nonempty.
Qed.

(* C10: every value of every supported type round-trips *)
Theorem typed_roundtrip : forall t v rest, wf_val t v ->
  exists bs, enc_val t v = Some bs /\ bs <> [] /\ dec_val t (bs ++ rest) = DOk v rest.
Proof.
  induction t as [p|t IH|k t IH]; intros v rest Hw; destruct v; cbn [wf_val] in Hw; try contradiction; cbn [enc_val dec_val].
  - destruct (enc_p_roundtrip p p0 rest Hw) as (b & Hb & Hne & Hd). exists b. rewrite Hd. auto.
  - destruct Hw as [Hall Hlen].
    destruct (seq_roundtrip_ne _ _ _ IH l rest Hall Hlen) as (bs & Hbs & Hne & Hd). exists bs. rewrite Hd. auto.
  - destruct Hw as (Hall & Hnd & Hlen).
    destruct (dict_roundtrip_ne pval_eqb (enc_p k) (dec_p k) (enc_val t) (dec_val t) (wf_p k) (wf_val t))
      with (l := l) (rest := rest) as (bs & Hbs & Hne & Hd); auto.
    + intros a b _ _. apply pval_eqb_eq.
    + apply enc_p_roundtrip.
    + intros x r Hx. destruct (IH x r Hx) as (b & Hb & _ & Hd). eauto.
    + exists bs. rewrite Hd. auto.
Qed.
