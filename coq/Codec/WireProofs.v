(* Proofs about the integer codecs of Codec/Wire.v (C10). *)
From Coq Require Import List NArith ZArith Lia ZifyBool Bool.
From SliceV Require Import Base.Bytes Base.Utf8 Gen.VarintArms Codec.Wire.
Import ListNotations.
Open Scope N_scope.

Lemma le_bytes_len n v : length (le_bytes n v) = n.
Proof. revert v; induction n; simpl; auto. Qed.
Lemma pow256_succ n : 256 ^ N.of_nat (S n) = 256 * 256 ^ N.of_nat n.
Proof. rewrite Nnat.Nat2N.inj_succ. apply N.pow_succ_r'. Qed.
(* `as uN` truncates *)
Lemma of_le_le_bytes_mod n v : of_le (le_bytes n v) = v mod 256 ^ N.of_nat n.
Proof.
  revert v; induction n as [|n IH]; intros v.
  - symmetry. apply N.mod_1_r.
  - cbn [le_bytes of_le]. rewrite IH, pow256_succ. symmetry. apply N.mod_mul_r; [|apply N.pow_nonzero]; discriminate.
Qed.
Lemma of_le_le_bytes n v : v < 256 ^ N.of_nat n -> of_le (le_bytes n v) = v.
Proof. intros H. rewrite of_le_le_bytes_mod. apply N.mod_small, H. Qed.
Lemma le_bytes_range n v : wf_bytes (le_bytes n v).
Proof. unfold wf_bytes. revert v; induction n; intros; cbn; constructor; auto. apply N.mod_lt; lia. Qed.
Lemma of_le_lt bs : wf_bytes bs -> of_le bs < 256 ^ N.of_nat (length bs).
Proof.
  induction 1 as [|b r Hb Hr IH]; [cbn; lia|].
  cbn [of_le length]. rewrite pow256_succ. lia.
Qed.
Lemma le_bytes_of_le bs : wf_bytes bs -> le_bytes (length bs) (of_le bs) = bs.
Proof.
  induction 1 as [|b r Hb Hr IH]; [reflexivity|].
  cbn [of_le length le_bytes]. f_equal.
  - rewrite N.mul_comm, N.mod_add by lia. apply N.mod_small; lia.
  - rewrite N.mul_comm, N.div_add by lia. rewrite N.div_small by lia. exact IH.
Qed.

Lemma take_exact_app {A} (l r : list A) n : length l = n -> take_exact n (l ++ r) = Some (l, r).
Proof.
  intros <-. unfold take_exact. rewrite app_length.
  replace (Nat.leb (length l) (length l + length r)) with true by (symmetry; apply Nat.leb_le; lia).
  rewrite firstn_app, skipn_app, Nat.sub_diag, firstn_all, skipn_all. cbn. rewrite app_nil_r. reflexivity.
Qed.
Lemma take_exact_split {A} n (l h r : list A) : take_exact n l = Some (h, r) -> l = h ++ r /\ length h = n.
Proof.
  unfold take_exact. destruct (Nat.leb_spec n (length l)); [|discriminate].
  intros E; inversion E; subst. split; [symmetry; apply firstn_skipn|]. rewrite firstn_length. lia.
Qed.
Lemma take_exact_ext {A} n (l h r x : list A) : take_exact n l = Some (h, r) -> take_exact n (l ++ x) = Some (h, r ++ x).
Proof.
  intros H. destruct (take_exact_split _ _ _ _ H) as [-> Hl]. rewrite <- app_assoc. apply take_exact_app. exact Hl.
Qed.

Lemma dec_uint_le n x rest : dec_uint n (le_bytes n x ++ rest) = DOk (x mod 256 ^ N.of_nat n) rest.
Proof. unfold dec_uint. rewrite take_exact_app, of_le_le_bytes_mod by apply le_bytes_len. reflexivity. Qed.
Lemma dec_int_le n x rest : dec_int n (le_bytes n x ++ rest) = DOk (untwos n (x mod 256 ^ N.of_nat n)) rest.
Proof. unfold dec_int. rewrite take_exact_app, of_le_le_bytes_mod by apply le_bytes_len. reflexivity. Qed.

Theorem uint_roundtrip n v rest : v < 256 ^ N.of_nat n -> dec_uint n (enc_uint n v ++ rest) = DOk v rest.
Proof. intros H. unfold enc_uint. rewrite dec_uint_le, N.mod_small by exact H. reflexivity. Qed.

(* Two's complement goes through Z, where twos n z is z mod 2^(8n). *)
Lemma pow256 n : 256 ^ N.of_nat n = 2 ^ (8 * N.of_nat n).
Proof. change 256 with (2^8). rewrite <- N.pow_mul_r. reflexivity. Qed.
Lemma pow256_Z n : Z.of_N (256 ^ N.of_nat n) = (2 ^ (8 * Z.of_nat n))%Z.
Proof. rewrite pow256, N2Z.inj_pow. f_equal. lia. Qed.
Lemma pow2_split k W : (0 <= k <= W -> 2 ^ W = 2 ^ k * 2 ^ (W - k))%Z.
Proof. intros H. rewrite <- Z.pow_add_r by lia. f_equal. lia. Qed.
Lemma twos_Z n z : Z.of_N (twos n z) = (z mod 2 ^ (8 * Z.of_nat n))%Z.
Proof. apply Z2N.id, Z.mod_pos_bound, Z.pow_pos_nonneg; lia. Qed.
Lemma mod_mod_mul a b c : (0 < b -> 0 < c -> (a mod (b * c)) mod b = a mod b)%Z.
Proof. intros Hb Hc. rewrite Z.rem_mul_r, (Z.mul_comm b), Z.mod_add, Z.mod_mod by lia. reflexivity. Qed.
Lemma mod_centered (u T : N) (z H : Z) : Z.of_N T = H -> (- H <= z < H)%Z -> Z.of_N u = (z mod (2 * H))%Z ->
  (if u <? T then Z.of_N u else (Z.of_N u - 2 * H)%Z) = z.
Proof.
  intros <- Hz HU. destruct (Z.ltb_spec z 0).
  - rewrite <- (Z_mod_plus_full z 1), Z.mod_small in HU by lia. destruct (N.ltb_spec u T); lia.
  - rewrite Z.mod_small in HU by lia. destruct (N.ltb_spec u T); lia.
Qed.

Lemma twos_lt n z : twos n z < 256 ^ N.of_nat n.
Proof. apply N2Z.inj_lt. rewrite twos_Z, pow256_Z. apply Z.mod_pos_bound, Z.pow_pos_nonneg; lia. Qed.
Lemma untwos_twos n z : (0 < n)%nat -> (- 2 ^ (8 * Z.of_nat n - 1) <= z < 2 ^ (8 * Z.of_nat n - 1))%Z ->
  untwos n (twos n z) = z.
Proof.
  intros Hn Hz. unfold untwos. rewrite (pow2_split 1 (8 * Z.of_nat n)) by lia. apply mod_centered.
  - rewrite N2Z.inj_pow. f_equal. lia.
  - exact Hz.
  - rewrite twos_Z. f_equal. apply (pow2_split 1). lia.
Qed.
Theorem int_roundtrip n z rest : (0 < n)%nat -> (- 2 ^ (8 * Z.of_nat n - 1) <= z < 2 ^ (8 * Z.of_nat n - 1))%Z ->
  dec_int n (enc_int n z ++ rest) = DOk z rest.
Proof.
  intros Hn Hz. unfold enc_int. rewrite dec_int_le, N.mod_small by apply twos_lt. rewrite untwos_twos; auto.
Qed.

Theorem fixed_is_LE_twos_complement n z :
  of_le (enc_int n z) = Z.to_N (z mod 2 ^ (8 * Z.of_nat n)) /\ length (enc_int n z) = n.
Proof. unfold enc_int. rewrite le_bytes_len, of_le_le_bytes by apply twos_lt. auto. Qed.
Theorem fixed_is_LE n v : v < 256 ^ N.of_nat n -> of_le (enc_uint n v) = v /\ length (enc_uint n v) = n.
Proof. intros. unfold enc_uint. rewrite le_bytes_len, of_le_le_bytes; auto. Qed.

Theorem bool_roundtrip b rest : dec_bool (enc_bool b ++ rest) = DOk b rest.
Proof. destruct b; reflexivity. Qed.
Theorem bool_strict b rest v r : dec_bool (b :: rest) = DOk v r -> (b = 0 \/ b = 1) /\ r = rest.
Proof.
  unfold dec_bool. destruct (N.eqb_spec b 0); [intros E; inversion E; auto|].
  destruct (N.eqb_spec b 1); [intros E; inversion E; auto|discriminate].
Qed.

Definition code_of_width (n : nat) : N :=
  match n with 1%nat => 0 | 2%nat => 1 | 4%nat => 2 | _ => 3 end.
Definition is_width (n : nat) : Prop := (n = 1 \/ n = 2 \/ n = 4 \/ n = 8)%nat.

(* What the encoders need of `pick`: for `bits` significant bits (sign included) the narrowest of the four widths that
   leaves two bits for the length code, with that code, and nothing above 62 bits.  The theorems about enc_varuint and
   enc_varint rest on the tables through table_ok alone. *)
Definition arm_spec (bits : N) (w : nat) (c : N) : Prop :=
  is_width w /\ c = code_of_width w /\ bits + 2 <= 8 * N.of_nat w /\ bits <= 62 /\
  forall m, is_width m -> bits + 2 <= 8 * N.of_nat m -> (w <= m)%nat.
Definition table_ok (a : list (N * N * nat * N)) : Prop :=
  forall bits, match pick bits a with Some (w, c) => arm_spec bits w c | None => 62 < bits end.

(* checked arm by arm by evaluation: arm_okb says the same of an arm's own bounds lo, hi *)
Definition arm_okb (arm : N * N * nat * N) : bool :=
  let '(lo, hi, w, c) := arm in
  (Nat.eqb w 1 || (Nat.eqb w 2 || (Nat.eqb w 4 || Nat.eqb w 8))) && (c =? code_of_width w)
  && (hi + 2 <=? 8 * N.of_nat w) && (hi <=? 62)
  && forallb (fun m => (8 * N.of_nat m <? lo + 2) || (w <=? m)%nat) [1; 2; 4; 8]%nat.
Definition missb (bits : N) (arm : N * N * nat * N) : bool :=
  let '(lo, hi, _, _) := arm in negb ((lo <=? bits) && (bits <=? hi)).

Lemma is_width_In m : is_width m -> In m [1; 2; 4; 8]%nat.
Proof. intros H. cbn [In]. destruct H as [H|[H|[H|H]]]; symmetry in H; auto 6. Qed.
Lemma arm_okb_spec lo hi w c bits : arm_okb (lo, hi, w, c) = true -> lo <= bits <= hi -> arm_spec bits w c.
Proof.
  unfold arm_okb. intros H [Hlo Hhi].
  apply andb_prop in H as [H Hs]. apply andb_prop in H as [H H62]. apply andb_prop in H as [H Hfit]. apply andb_prop in H as [Hw Hc].
  apply N.eqb_eq in Hc. apply N.leb_le in Hfit, H62.
  split. { apply orb_true_iff in Hw as [Hw|[Hw|[Hw|Hw]%orb_true_iff]%orb_true_iff]; apply Nat.eqb_eq in Hw; unfold is_width; auto. }
  split; [exact Hc|]. split; [eapply N.le_trans; [apply N.add_le_mono_r, Hhi|exact Hfit]|]. split; [exact (N.le_trans _ _ _ Hhi H62)|].
  intros m Hm%is_width_In Hb. apply (proj1 (forallb_forall _ _) Hs), orb_true_iff in Hm as [Hm%N.ltb_lt|Hm%Nat.leb_le]; [|exact Hm].
  clear - Hlo Hb Hm. lia.
Qed.
Lemma pick_spec bits a : forallb arm_okb a = true ->
  match pick bits a with Some (w, c) => arm_spec bits w c | None => forallb (missb bits) a = true end.
Proof.
  induction a as [|[[[lo hi] w] c] a IH]; cbn [pick forallb missb]; [reflexivity|]. intros [Hok Ha]%andb_true_iff.
  destruct ((lo <=? bits) && (bits <=? hi)) eqn:E; cbn [negb andb]; [|exact (IH Ha)].
  apply andb_true_iff in E as [Hl%N.leb_le Hh%N.leb_le]. exact (arm_okb_spec _ _ _ _ _ Hok (conj Hl Hh)).
Qed.
Lemma table_ok_intro a :
  forallb arm_okb a = true -> (forall bits, forallb (missb bits) a = true -> 62 < bits) -> table_ok a.
Proof.
  intros Hok Hcov bits. pose proof (pick_spec bits a Hok) as H.
  destruct (pick bits a) as [[w c]|]; [exact H|exact (Hcov bits H)].
Qed.

(* In this file only these two, dec_width_of and the gen_ lemmas look inside the regenerated Gen/VarintArms.v. *)
Lemma varuint_table : table_ok varuint_arms.
Proof. apply table_ok_intro; [reflexivity|]. intros bits. unfold varuint_arms. cbn [forallb missb]. lia. Qed.
Lemma varint_table : table_ok varint_arms.
Proof. apply table_ok_intro; [reflexivity|]. intros bits. unfold varint_arms. cbn [forallb missb]. lia. Qed.
Lemma dec_width_of n : is_width n ->
  lookup_width (code_of_width n) varuint_dec_arms = Some n /\ lookup_width (code_of_width n) varint_dec_arms = Some n.
Proof. intros [->|[->|[->| ->]]]; split; reflexivity. Qed.
Lemma gen_shifts : varuint_enc_shift = 2 /\ varint_enc_shift = 2 /\ varuint_dec_shift = 2 /\ varint_dec_shift = 2.
Proof. repeat split; reflexivity. Qed.
Lemma gen_masks : varuint_dec_mask = 3 /\ varint_dec_mask = 3.
Proof. split; reflexivity. Qed.
Lemma gen_sign_bits : varuint_sign_bit = 0 /\ varint_sign_bit = 1.
Proof. split; reflexivity. Qed.
(* the flags and limits of the source that the model does not consult have the values the bounds 2^62 and 2^61 of the
   theorems are written with: a change of one of them in the source stops the build here *)
Lemma gen_limits :
  varint_enc_casts_signed = true /\ varuint_enc_casts_unsigned = true /\
  varint_dec_signed = true /\ varuint_dec_unsigned = true /\
  varint_reject_from = 63 /\ varuint_reject_from = 63 /\
  VARUINT62_MAX = 2 ^ 62 - 1 /\ VARUINT62_MIN = 0 /\
  VARINT62_MIN = (- 2 ^ 61)%Z /\ VARINT62_MAX = (2 ^ 61 - 1)%Z.
Proof. repeat split; reflexivity. Qed.

Lemma land3 b : N.land b 3 = b mod 4.
Proof. change 3 with (N.ones 2). rewrite N.land_ones. reflexivity. Qed.
Lemma code_of_width_onto c : c < 4 -> exists n, is_width n /\ code_of_width n = c.
Proof.
  intros H. assert (c = 0 \/ c = 1 \/ c = 2 \/ c = 3) as [->|[->|[->| ->]]] by lia;
  [exists 1%nat|exists 2%nat|exists 4%nat|exists 8%nat]; unfold is_width; auto.
Qed.
(* every masked first byte has an arm: the decoders' `unreachable_unchecked` branch is dead *)
Lemma dec_width_masked b : exists n, is_width n /\
  lookup_width (N.land b varuint_dec_mask) varuint_dec_arms = Some n /\ lookup_width (N.land b varint_dec_mask) varint_dec_arms = Some n.
Proof.
  destruct gen_masks as [-> ->]. rewrite land3.
  destruct (code_of_width_onto (b mod 4)) as (n & Hn & <-); [apply N.mod_lt; discriminate|]. exists n. split; [exact Hn|apply dec_width_of, Hn].
Qed.

Lemma width_range n : is_width n -> (0 < n <= 8)%nat.
Proof. intros [->|[->|[->| ->]]]; lia. Qed.
Lemma code_lt n : is_width n -> code_of_width n < 4.
Proof. intros [->|[->|[->| ->]]]; reflexivity. Qed.

Lemma size_le_lt v k : N.size v <= k -> v < 2 ^ k.
Proof. intros H. destruct (N.eq_dec v 0) as [->|Hz]. { apply N.neq_0_lt_0, N.pow_nonzero; lia. }
  eapply N.lt_le_trans; [apply N.size_gt|]. apply N.pow_le_mono_r; lia. Qed.
Lemma lt_size_le v k : v < 2 ^ k -> N.size v <= k.
Proof. intros H. destruct (N.eq_dec v 0) as [->|Hz]; [cbn; lia|].
  rewrite N.size_log2 by exact Hz. apply N.le_succ_l. apply N.log2_lt_pow2; lia. Qed.

Lemma size_le_iff v k : N.size v <= k <-> v < 2 ^ k.
Proof. split; [apply size_le_lt|apply lt_size_le]. Qed.

Lemma bits_u_le v k : bits_u v <= k <-> v < 2 ^ k.
Proof.
  unfold bits_u. rewrite (proj1 gen_sign_bits), N.add_0_r. apply size_le_iff.
Qed.
Lemma bits_s_le z k : 0 < k -> bits_s z <= k <-> (- 2 ^ (Z.of_N k - 1) <= z < 2 ^ (Z.of_N k - 1))%Z.
Proof.
  intros Hk. unfold bits_s. rewrite (proj2 gen_sign_bits).
  replace (2 ^ (Z.of_N k - 1))%Z with (Z.of_N (2 ^ (k - 1))) by (rewrite N2Z.inj_pow; f_equal; lia).
  replace k with (k - 1 + 1) at 1 by lia. rewrite <- N.add_le_mono_r.
  destruct (Z.ltb_spec z 0); rewrite size_le_iff; generalize (2 ^ (k - 1)); lia.
Qed.
(* 4v + 3: the value beside its two code bits *)
Lemma fit_u v m : (0 < m)%nat -> 4 * v + 3 < 256 ^ N.of_nat m <-> bits_u v + 2 <= 8 * N.of_nat m.
Proof.
  intros Hm. rewrite pow256. replace (8 * N.of_nat m) with (8 * N.of_nat m - 2 + 2) by lia.
  rewrite <- N.add_le_mono_r, bits_u_le, N.pow_add_r. change (2 ^ 2) with 4. lia.
Qed.
Lemma fit_s z m : (0 < m)%nat ->
  (- 2 ^ (8 * Z.of_nat m - 1) <= 4 * z /\ 4 * z + 3 < 2 ^ (8 * Z.of_nat m - 1))%Z <-> bits_s z + 2 <= 8 * N.of_nat m.
Proof.
  intros Hm. replace (8 * N.of_nat m) with (8 * N.of_nat m - 2 + 2) by lia.
  rewrite <- N.add_le_mono_r, bits_s_le by lia.
  replace (Z.of_N (8 * N.of_nat m - 2) - 1)%Z with (8 * Z.of_nat m - 1 - 2)%Z by lia.
  rewrite (pow2_split 2 (8 * Z.of_nat m - 1)) by lia. change (2 ^ 2)%Z with 4%Z. lia.
Qed.

Lemma lor_low x c : x mod 4 = 0 -> c < 4 -> N.lor x c = x + c.
Proof.
  intros Hx Hc.
  assert (Hland : N.land x c = 0).
  { apply N.bits_inj_0. intros n. rewrite N.land_spec. destruct (N.lt_ge_cases n 2) as [H|H].
    - rewrite <- (N.mod_pow2_bits_low x 2 n H). change (2 ^ 2) with 4. rewrite Hx. reflexivity.
    - rewrite <- (N.mod_small c (2 ^ 2) Hc), (N.mod_pow2_bits_high c 2 n H). apply andb_false_r. }
  rewrite N.add_nocarry_lxor, N.lxor_lor by exact Hland. reflexivity.
Qed.
Lemma add_mod4 x c : x mod 4 = 0 -> c < 4 -> (x + c) mod 4 = c.
Proof. intros Hx Hc. rewrite N.add_mod, Hx, N.add_0_l, N.mod_mod by discriminate. apply N.mod_small, Hc. Qed.
Lemma mul4_mod4 q : (4 * q) mod 4 = 0.
Proof. rewrite N.mul_comm. apply N.mod_mul. discriminate. Qed.
Lemma div4 q c : c < 4 -> (4 * q + c) / 4 = q.
Proof. intros Hc. rewrite N.mul_comm, N.div_add_l, N.div_small, N.add_0_r by (discriminate || exact Hc). reflexivity. Qed.
Lemma div4_Z z c : c < 4 -> ((4 * z + Z.of_N c) / 4 = z)%Z.
Proof. intros Hc. rewrite Z.mul_comm, Z.div_add_l, Z.div_small by lia. apply Z.add_0_r. Qed.

Lemma hd_mod4 n x : (0 < n)%nat -> match le_bytes n x with b :: _ => b mod 4 = x mod 4 | [] => False end.
Proof. destruct n; [lia|]. intros _. cbn. change 256 with (4 * 64). rewrite N.mod_mul_r by lia.
  rewrite N.mul_comm, N.mod_add by lia. apply N.mod_mod; lia. Qed.

(* The common shape of enc_varuint and enc_varint: `pick`, then the shifted value T with the code in its two low bits. *)
Definition enc_arms (a : list (N * N * nat * N)) (bits T : N) : option (list byte) :=
  match pick bits a with Some (w, c) => Some (le_bytes w (N.lor T c)) | None => None end.

Lemma enc_varuint_arms v : enc_varuint v = enc_arms varuint_arms (bits_u v) ((v * 2 ^ varuint_enc_shift) mod 2 ^ 64).
Proof. reflexivity. Qed.
Lemma enc_varint_arms z : enc_varint z = enc_arms varint_arms (bits_s z) (twos 8 (z * 2 ^ Z.of_N varint_enc_shift)).
Proof. reflexivity. Qed.

Lemma enc_arms_inv a bits T bs : table_ok a -> enc_arms a bits T = Some bs ->
  exists n c, arm_spec bits n c /\ bs = le_bytes n (N.lor T c).
Proof.
  intros Ha. unfold enc_arms. specialize (Ha bits). destruct (pick bits a) as [[n c]|]; [|discriminate].
  intros [= <-]. eauto.
Qed.
Lemma enc_arms_none a bits T : table_ok a -> enc_arms a bits T = None -> 62 < bits.
Proof. intros Ha. unfold enc_arms. specialize (Ha bits). destruct (pick bits a) as [[n c]|]; [discriminate|auto]. Qed.
Lemma enc_arms_width a bits T bs : table_ok a -> enc_arms a bits T = Some bs ->
  is_width (length bs) /\ bits <= 62 /\ forall m, is_width m -> bits + 2 <= 8 * N.of_nat m -> (length bs <= m)%nat.
Proof.
  intros Ha H. destruct (enc_arms_inv _ _ _ _ Ha H) as (n & c & (Hw & _ & _ & H62 & Hs) & ->).
  rewrite le_bytes_len. auto.
Qed.

Lemma varint_head n x rest : is_width n -> x mod 4 = code_of_width n ->
  exists b tl, le_bytes n x ++ rest = b :: tl /\ N.land b 3 = code_of_width n.
Proof.
  intros Hn Hx. pose proof (hd_mod4 n x (proj1 (width_range n Hn))) as Hh.
  destruct (le_bytes n x) as [|b tl]; [contradiction|]. exists b, (tl ++ rest). rewrite land3, Hh. auto.
Qed.
Lemma dec_varuint_le n x rest : is_width n -> x mod 4 = code_of_width n ->
  dec_varuint (le_bytes n x ++ rest) = DOk (x mod 256 ^ N.of_nat n / 4) rest.
Proof.
  intros Hn Hx. destruct (varint_head n x rest Hn Hx) as (b & tl & E & Hb).
  unfold dec_varuint. rewrite E. destruct gen_shifts as (_ & _ & Hsh & _).
  rewrite (proj1 gen_masks), Hsh, Hb, (proj1 (dec_width_of n Hn)), <- E, dec_uint_le. cbn [dbind].
  rewrite N.shiftr_div_pow2. reflexivity.
Qed.
Lemma dec_varint_le n x rest : is_width n -> x mod 4 = code_of_width n ->
  dec_varint (le_bytes n x ++ rest) = DOk (untwos n (x mod 256 ^ N.of_nat n) / 4)%Z rest.
Proof.
  intros Hn Hx. destruct (varint_head n x rest Hn Hx) as (b & tl & E & Hb).
  unfold dec_varint. rewrite E. destruct gen_shifts as (_ & _ & _ & Hsh).
  rewrite (proj2 gen_masks), Hsh, Hb, (proj2 (dec_width_of n Hn)), <- E, dec_int_le. cbn [dbind].
  rewrite Z.shiftr_div_pow2 by discriminate. reflexivity.
Qed.

Lemma enc_varuint_inv v bs : enc_varuint v = Some bs ->
  exists n c, arm_spec (bits_u v) n c /\ bs = le_bytes n (4 * v + c).
Proof.
  rewrite enc_varuint_arms. intros (n & c & Ha & ->)%(enc_arms_inv _ _ _ _ varuint_table). exists n, c. split; [exact Ha|].
  destruct Ha as (Hn & -> & _ & Hv%bits_u_le & _).
  rewrite (proj1 gen_shifts). change (2 ^ 2) with 4. rewrite (N.mul_comm v).
  rewrite N.mod_small by (change (2 ^ 64) with (4 * 2 ^ 62); apply N.mul_lt_mono_pos_l; [reflexivity|exact Hv]).
  rewrite lor_low; [reflexivity|apply mul4_mod4|apply code_lt, Hn].
Qed.

Lemma varuint_decodes v bs rest : enc_varuint v = Some bs -> dec_varuint (bs ++ rest) = DOk v rest.
Proof.
  intros (n & c & (Hn & -> & Hfit & _) & ->)%enc_varuint_inv.
  pose proof (code_lt n Hn) as Hc. apply fit_u in Hfit; [|apply width_range, Hn].
  rewrite (dec_varuint_le _ _ _ Hn (add_mod4 _ _ (mul4_mod4 v) Hc)), N.mod_small, (div4 _ _ Hc) by lia. reflexivity.
Qed.
Theorem varuint_roundtrip v rest : v < 2 ^ 62 ->
  exists bs, enc_varuint v = Some bs /\ dec_varuint (bs ++ rest) = DOk v rest.
Proof.
  intros Hv. destruct (enc_varuint v) as [bs|] eqn:E; [eauto using varuint_decodes|].
  rewrite enc_varuint_arms in E. apply (enc_arms_none _ _ _ varuint_table) in E. apply bits_u_le in Hv. lia.
Qed.

Theorem varuint_refuses v : 2 ^ 62 <= v -> enc_varuint v = None.
Proof.
  intros H. destruct (enc_varuint v) as [bs|] eqn:E; [|reflexivity].
  rewrite enc_varuint_arms in E. apply (enc_arms_width _ _ _ _ varuint_table) in E as (_ & Hv%bits_u_le & _). lia.
Qed.

Theorem varuint_length v bs : enc_varuint v = Some bs ->
  (length bs = 1 \/ length bs = 2 \/ length bs = 4 \/ length bs = 8)%nat.
Proof. rewrite enc_varuint_arms. intros H. destruct (enc_arms_width _ _ _ _ varuint_table H) as (Hw & _ & _). exact Hw. Qed.

Theorem varuint_shortest v bs : enc_varuint v = Some bs ->
  forall m, (m = 1 \/ m = 2 \/ m = 4 \/ m = 8)%nat -> 4 * v + 3 < 256 ^ N.of_nat m -> (length bs <= m)%nat.
Proof.
  rewrite enc_varuint_arms. intros H m Hm Hfit. destruct (enc_arms_width _ _ _ _ varuint_table H) as (_ & _ & Hs). apply Hs; [exact Hm|].
  apply fit_u; [apply width_range, Hm|exact Hfit].
Qed.

Theorem varuint_low_bits v b bs : enc_varuint v = Some (b :: bs) -> b mod 4 = code_of_width (S (length bs)).
Proof.
  intros (n & c & (Hn & -> & _) & E)%enc_varuint_inv.
  pose proof (hd_mod4 n (4 * v + code_of_width n) (proj1 (width_range n Hn))) as Hh.
  pose proof (le_bytes_len n (4 * v + code_of_width n)) as Hl. rewrite <- E in Hh, Hl. cbn [length] in Hl.
  rewrite Hl, Hh. apply add_mod4; [apply mul4_mod4|apply code_lt, Hn].
Qed.

Lemma twos_add n z c : (0 < n)%nat -> c < 4 -> twos n (4 * z) + c = twos n (4 * z + Z.of_N c).
Proof.
  intros Hn Hc. apply N2Z.inj. rewrite N2Z.inj_add, !twos_Z.
  rewrite (pow2_split 2 (8 * Z.of_nat n)) by lia. change (2 ^ 2)%Z with 4%Z.
  assert (Hp : (0 < 2 ^ (8 * Z.of_nat n - 2))%Z) by (apply Z.pow_pos_nonneg; lia).
  rewrite <- (Z.add_mod_idemp_l (4 * z)), Z.mul_mod_distr_l by lia.
  pose proof (Z.mod_pos_bound z _ Hp). symmetry. apply Z.mod_small. lia.
Qed.
Lemma twos_mod4 n z : (0 < n)%nat -> twos n (4 * z) mod 4 = 0.
Proof.
  intros Hn. apply N2Z.inj. rewrite N2Z.inj_mod, twos_Z.
  rewrite (pow2_split 2 (8 * Z.of_nat n)) by lia. change (2 ^ 2)%Z with 4%Z.
  rewrite mod_mod_mul by (try apply Z.pow_pos_nonneg; lia). rewrite Z.mul_comm. apply Z.mod_mul. discriminate.
Qed.
(* `x as iN` of an i64 *)
Lemma twos_trunc n z : (n <= 8)%nat -> twos 8 z mod 256 ^ N.of_nat n = twos n z.
Proof.
  intros Hn. apply N2Z.inj. rewrite N2Z.inj_mod, !twos_Z, pow256_Z.
  rewrite (pow2_split (8 * Z.of_nat n) (8 * Z.of_nat 8)) by lia.
  apply mod_mod_mul; apply Z.pow_pos_nonneg; lia.
Qed.

Lemma varint_decodes z bs rest : enc_varint z = Some bs -> dec_varint (bs ++ rest) = DOk z rest.
Proof.
  rewrite enc_varint_arms. intros (n & c & (Hn & -> & Hfit & _) & ->)%(enc_arms_inv _ _ _ _ varint_table).
  pose proof (code_lt n Hn) as Hc. destruct (width_range n Hn) as [Hpos H8]. apply fit_s in Hfit; [|exact Hpos].
  destruct gen_shifts as (_ & -> & _). change (2 ^ Z.of_N 2)%Z with 4%Z. rewrite (Z.mul_comm z).
  assert (H4 : twos 8 (4 * z) mod 4 = 0) by (apply twos_mod4; lia).
  rewrite (lor_low _ _ H4 Hc), (dec_varint_le _ _ _ Hn (add_mod4 _ _ H4 Hc)).
  rewrite twos_add, (twos_trunc _ _ H8), (untwos_twos _ _ Hpos), (div4_Z _ _ Hc) by lia. reflexivity.
Qed.
Theorem varint_roundtrip z rest : (- 2 ^ 61 <= z < 2 ^ 61)%Z ->
  exists bs, enc_varint z = Some bs /\ dec_varint (bs ++ rest) = DOk z rest.
Proof.
  intros Hz. destruct (enc_varint z) as [bs|] eqn:E; [eauto using varint_decodes|].
  rewrite enc_varint_arms in E. apply (enc_arms_none _ _ _ varint_table) in E. apply (bits_s_le z 62) in Hz; lia.
Qed.

Theorem varint_refuses z : (z < - 2 ^ 61 \/ 2 ^ 61 <= z)%Z -> enc_varint z = None.
Proof.
  intros H. destruct (enc_varint z) as [bs|] eqn:E; [|reflexivity].
  rewrite enc_varint_arms in E. apply (enc_arms_width _ _ _ _ varint_table) in E as (_ & Hz & _). apply (bits_s_le z 62) in Hz; lia.
Qed.

Theorem varint_length z bs : enc_varint z = Some bs ->
  (length bs = 1 \/ length bs = 2 \/ length bs = 4 \/ length bs = 8)%nat.
Proof. rewrite enc_varint_arms. intros H. destruct (enc_arms_width _ _ _ _ varint_table H) as (Hw & _ & _). exact Hw. Qed.

Theorem varint_shortest z bs : enc_varint z = Some bs ->
  forall m, (m = 1 \/ m = 2 \/ m = 4 \/ m = 8)%nat ->
  (- 2 ^ (8 * Z.of_nat m - 1) <= 4 * z /\ 4 * z + 3 < 2 ^ (8 * Z.of_nat m - 1))%Z -> (length bs <= m)%nat.
Proof.
  rewrite enc_varint_arms. intros H m Hm Hfit. destruct (enc_arms_width _ _ _ _ varint_table H) as (_ & _ & Hs). apply Hs; [exact Hm|].
  apply fit_s; [apply width_range, Hm|exact Hfit].
Qed.
