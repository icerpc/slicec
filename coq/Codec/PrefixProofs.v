(* Truncation (C18, C11): a decoder that succeeds on some bytes gives the same value when more bytes follow ("extension
   stable"), hence it cannot succeed on a strict prefix of what it consumed.  Lifted through every decoder of the reply and of the typed values. *)
From Coq Require Import List NArith ZArith Lia Bool.
From SliceV Require Import Base.Bytes Base.Utf8 Gen.VarintArms Codec.Wire Codec.WireProofs Codec.CollProofs Codec.Typed
  Codec.DecodeProofs Codec.Reply Codec.ReplyProofs.
Import ListNotations.
Local Open Scope nat_scope.

Definition ext_stable {A} (d : list byte -> dres A) : Prop :=
  forall bs v r x, d bs = DOk v r -> d (bs ++ x) = DOk v (r ++ x).

Lemma truncated_rejected {A} (d : list byte -> dres A) : ext_stable d -> nofuel d ->
  forall bs v r, d bs = DOk v r -> forall k, k < length bs - length r -> exists e, d (firstn k bs) = DErr e /\ e <> EFuel.
Proof.
  intros He Hf bs v r H k Hk. destruct (d (firstn k bs)) as [v' r'|e] eqn:E.
  - apply (He _ _ _ (skipn k bs)) in E. rewrite firstn_skipn, H in E. injection E as _ Hr.
    apply (f_equal (@length byte)) in Hr. rewrite app_length, skipn_length in Hr. lia.
  - exists e. split; [reflexivity|]. intros ->. exact (Hf _ E).
Qed.

Lemma dbind_ext {A B} (d : list byte -> dres A) (k : A -> list byte -> dres B) :
  ext_stable d -> (forall a, ext_stable (k a)) -> ext_stable (fun bs => dbind (d bs) k).
Proof.
  intros Hd Hk bs v r x H. apply dbind_ok in H as (a & r0 & E & H).
  rewrite (Hd _ _ _ x E). cbn [dbind]. apply Hk. exact H.
Qed.
Lemma ext_ret {A} (v : A) : ext_stable (DOk v).
Proof. intros bs v' r x H. inversion H. reflexivity. Qed.
Lemma ext_err {A} e : ext_stable (fun _ => @DErr A e).
Proof. intros bs v r x H. discriminate. Qed.
Lemma ext_take {A} n (k : list byte -> list byte -> dres A) e : (forall s, ext_stable (k s)) ->
  ext_stable (fun bs => match take_n n bs with Some (s, r) => k s r | None => DErr e end).
Proof.
  intros Hk bs v r x H. destruct (take_n n bs) as [[s r1]|] eqn:E; [|discriminate].
  rewrite (take_n_ext _ _ _ _ x E). apply Hk. exact H.
Qed.
Lemma ext_peek {A} (g : byte -> list byte -> dres A) e : (forall b, ext_stable (g b)) ->
  ext_stable (fun bs => match bs with [] => DErr e | b :: _ => g b bs end).
Proof. intros H [|b t] v r x E; [discriminate|exact (H b _ _ _ x E)]. Qed.
#[export] Hint Resolve dbind_ext ext_ret ext_err ext_take ext_peek : dec.
#[export] Hint Extern 2 (ext_stable (fun _ => if _ then _ else _)) => case_if : dec.

Lemma dec_bool_ext : ext_stable dec_bool.
Proof.
  intros [|b t] v r x H; [discriminate|]. cbn [app]. unfold dec_bool in *.
  destruct (N.eqb b 0); [|destruct (N.eqb b 1)]; inversion H; reflexivity.
Qed.
Lemma fixed_ext {A} (f : list byte -> A) n :
  ext_stable (fun bs => match take_exact n bs with Some (h, r) => DOk (f h) r | None => DErr EEob end).
Proof.
  intros bs v r x H. destruct (take_exact n bs) as [[h t]|] eqn:E; [|discriminate].
  rewrite (take_exact_ext _ _ _ _ x E). inversion H; reflexivity.
Qed.
#[export] Hint Resolve dec_bool_ext fixed_ext : dec.
Lemma dec_varuint_ext : ext_stable dec_varuint.
Proof. apply ext_peek. intros b. destruct (lookup_width _ _); eauto with dec. Qed.
Lemma dec_varint_ext : ext_stable dec_varint.
Proof. apply ext_peek. intros b. destruct (lookup_width _ _); eauto with dec. Qed.
#[export] Hint Resolve dec_varuint_ext dec_varint_ext : dec.
Lemma dec_varint_in_ext lo hi : ext_stable (dec_varint_in lo hi).
Proof. unfold dec_varint_in. eauto with dec. Qed.
Lemma dec_str_ext : ext_stable dec_str.
Proof. unfold dec_str. eauto with dec. Qed.
#[export] Hint Resolve dec_varint_in_ext dec_str_ext : dec.

(* the fuelled loops: success is independent of any larger fuel and of what follows *)
Lemma skip_tagged_ext : forall f bs r x f', skip_tagged f bs = DOk tt r -> f <= f' -> skip_tagged f' (bs ++ x) = DOk tt (r ++ x).
Proof.
  induction f as [|f IH]; intros bs r x f' H Hf; [discriminate|]. destruct f' as [|f']; [lia|]. cbn [skip_tagged] in *. unfold dec_size in *.
  apply dbind_ok in H as (t & r0 & E & H). rewrite (dec_varint_in_ext _ _ _ _ _ x E). cbn [dbind].
  destruct (t =? TAG_END_MARKER)%Z; [inversion H; reflexivity|].
  apply dbind_ok in H as (n & r1 & E1 & H). rewrite (dec_varuint_ext _ _ _ x E1). cbn [dbind].
  destruct (take_n n r1) as [[s r2]|] eqn:Et; [|discriminate]. rewrite (take_n_ext _ _ _ _ x Et).
  apply IH; [exact H|lia].
Qed.
Lemma skip_tagged_fields_ext : ext_stable skip_tagged_fields.
Proof.
  intros bs [] r x H. unfold skip_tagged_fields in *. eapply skip_tagged_ext; [exact H|]. rewrite app_length. lia.
Qed.

Lemma dec_items_ext {A} (d : list byte -> dres A) : ext_stable d ->
  forall f n bs v r x f', dec_items d f n bs = DOk v r -> f <= f' -> dec_items d f' n (bs ++ x) = DOk v (r ++ x).
Proof.
  intros Hd. induction f as [|f IH]; intros n bs v r x f' H Hf; cbn [dec_items] in H.
  - destruct (N.eqb n 0) eqn:En; [|discriminate]. inversion H. destruct f'; cbn [dec_items]; rewrite En; reflexivity.
  - destruct f' as [|f']; [inversion Hf|]. cbn [dec_items]. destruct (N.eqb n 0); [inversion H; reflexivity|].
    apply dbind_ok in H as (a & r0 & E & H). rewrite (Hd _ _ _ x E). cbn [dbind].
    apply dbind_ok in H as (xs & r1 & E1 & H). rewrite (IH _ _ _ _ x f' E1 (le_S_n _ _ Hf)). cbn [dbind]. inversion H; reflexivity.
Qed.
Lemma dec_seq_ext {A} (d : list byte -> dres A) : ext_stable d -> ext_stable (dec_seq d).
Proof.
  intros Hd bs v r x H. unfold dec_seq, dec_size in *. apply dbind_ok in H as (n & r0 & E & H).
  rewrite (dec_varuint_ext _ _ _ x E). cbn [dbind]. eapply dec_items_ext; [exact Hd|exact H|]. rewrite app_length. lia.
Qed.
#[export] Hint Resolve skip_tagged_fields_ext dec_seq_ext : dec.

Lemma genfile_ext : ext_stable dec_generated_file.
Proof. unfold dec_generated_file. eauto with dec. Qed.
Lemma level_ext : ext_stable dec_level.
Proof. unfold dec_level. eauto with dec. Qed.
#[export] Hint Resolve genfile_ext level_ext : dec.
Lemma diag_ext : ext_stable dec_diagnostic.
Proof. unfold dec_diagnostic. eauto 8 with dec. Qed.
#[export] Hint Resolve diag_ext : dec.
Theorem reply_ext : ext_stable dec_reply.
Proof. unfold dec_reply. eauto with dec. Qed.

(* C18: a reply cut anywhere inside what the decoder consumed is a decoding error *)
Theorem truncated_reply_rejected bs v r : dec_reply bs = DOk v r ->
  forall k, k < length bs - length r -> exists e, dec_reply (firstn k bs) = DErr e /\ e <> EFuel.
Proof. exact (truncated_rejected dec_reply reply_ext reply_nofuel bs v r). Qed.
Theorem truncated_string_rejected s r bs : dec_str bs = DOk s r -> forall k, k < length bs - length r -> exists e, dec_str (firstn k bs) = DErr e.
Proof.
  intros H k Hk. destruct (truncated_rejected dec_str dec_str_ext dec_str_nofuel bs s r H k Hk) as (e & E & _). eauto.
Qed.

Lemma dec_p_ext p : ext_stable (dec_p p).
Proof. destruct p; cbn [dec_p]; eauto with dec. Qed.
Lemma dec_pair_ext {K V} (dk : list byte -> dres K) (dv : list byte -> dres V) : ext_stable dk -> ext_stable dv -> ext_stable (dec_pair dk dv).
Proof. intros Hk Hv. unfold dec_pair. eauto with dec. Qed.
Lemma dec_dict_ext {K V} keq (dk : list byte -> dres K) (dv : list byte -> dres V) : ext_stable dk -> ext_stable dv -> ext_stable (dec_dict keq dk dv).
Proof.
  intros Hk Hv bs v r x H. apply dec_dict_ok in H as [H D]. apply dec_dict_ok. split; [|exact D].
  exact (dec_seq_ext _ (dec_pair_ext dk dv Hk Hv) _ _ _ x H).
Qed.
Theorem dec_val_ext : forall t, ext_stable (dec_val t).
Proof. induction t as [p|t IH|k t IH]; cbn [dec_val]; eauto using dec_p_ext, dec_dict_ext with dec. Qed.
(* C11: a cut anywhere inside an encoded value, of any type, is an error, never a shorter value *)
Theorem truncated_value_rejected t : wf_ty t -> forall bs v r, dec_val t bs = DOk v r ->
  forall k, k < length bs - length r -> exists e, dec_val t (firstn k bs) = DErr e /\ e <> EFuel.
Proof. intros Hw. exact (truncated_rejected _ (dec_val_ext t) (proj2 (dec_val_total_prefix t Hw))). Qed.
Theorem decoded_value_independent_of_rest t bs v r x : dec_val t bs = DOk v r -> dec_val t (bs ++ x) = DOk v (r ++ x).
Proof. apply dec_val_ext. Qed.
