(* The buffer refines its log (C12): every operation on the buffer does what the same operation does on the log of segments
   and holes, so bytes written stay, reservations stay apart and below the position, and nothing passes the end. *)
From Coq Require Import List Arith Lia NArith.
From SliceV Require Import Base.Bytes Codec.Buffer.
Import ListNotations.
Open Scope nat_scope.

Lemma render_app a b : render (a ++ b) = render a ++ render b.
Proof. unfold render. apply flat_map_app. Qed.
Lemma ranges_app a b off : ranges off (a ++ b) = ranges off a ++ ranges (off + length (render a)) b.
Proof.
  unfold render. revert off; induction a as [|[d|f rm] a IH]; intros off; cbn [app ranges flat_map rend].
  - rewrite Nat.add_0_r; reflexivity.
  - rewrite IH, app_length, Nat.add_assoc. reflexivity.
  - rewrite IH, !app_length, !Nat.add_assoc. reflexivity.
Qed.
Lemma render_snoc l x : render (l ++ [x]) = render l ++ rend x.
Proof. rewrite render_app. cbn. rewrite app_nil_r. reflexivity. Qed.

Lemma nat_add_sub_l n m : n + m - n = m.
Proof. rewrite Nat.add_comm. apply Nat.add_sub. Qed.
Lemma skipn_app_add {A} (p l : list A) n : skipn (length p + n) (p ++ l) = skipn n l.
Proof. induction p as [|a p IH]; [reflexivity|exact IH]. Qed.

Lemma put_shift (p l : list byte) s bs : put (p ++ l) (length p + s) bs = p ++ put l s bs.
Proof. unfold put. rewrite firstn_app_2, <- Nat.add_assoc, skipn_app_add, <- app_assoc. reflexivity. Qed.
Lemma put_prefix (l t : list byte) bs : put (l ++ t) (length l) bs = l ++ bs ++ skipn (length bs) t.
Proof. rewrite <- (Nat.add_0_r (length l)). exact (put_shift l t 0 bs). Qed.
Lemma put_left (l t : list byte) s bs : s + length bs <= length l -> put (l ++ t) s bs = put l s bs ++ t.
Proof.
  intros H. unfold put. rewrite firstn_app, skipn_app.
  assert (E : s - length l = 0 /\ s + length bs - length l = 0) by lia. destruct E as [-> ->].
  cbn [firstn skipn]. rewrite app_nil_r, <- !app_assoc. reflexivity.
Qed.
Lemma put_length l s bs : s + length bs <= length l -> length (put l s bs) = length l.
Proof. intros H. unfold put. rewrite !app_length, firstn_length, skipn_length. lia. Qed.
Lemma put_confined l s bs : s + length bs <= length l ->
  firstn s (put l s bs) = firstn s l /\ skipn (s + length bs) (put l s bs) = skipn (s + length bs) l /\
  firstn (length bs) (skipn s (put l s bs)) = bs.
Proof.
  intros H. unfold put. assert (Hl : length (firstn s l) = s) by (apply firstn_length_le; lia).
  repeat split.
  - rewrite firstn_app, Hl, Nat.sub_diag, firstn_firstn, Nat.min_id. apply app_nil_r.
  - rewrite app_assoc, skipn_app, app_length, Hl, Nat.sub_diag, skipn_all2 by (rewrite app_length, Hl; apply Nat.le_refl).
    reflexivity.
  - rewrite skipn_app, Hl, Nat.sub_diag, skipn_all2 by (rewrite Hl; apply Nat.le_refl). cbn [skipn app].
    rewrite firstn_app, Nat.sub_diag, firstn_all. apply app_nil_r.
Qed.
Lemma nth_set_nth {A} (l : list A) i x y : nth_error l i = Some y -> nth_error (set_nth l i x) i = Some x.
Proof. revert i. induction l as [|z l IH]; intros [|i] H; cbn in *; try discriminate; auto. Qed.

Lemma ranges_length l : forall off, length (ranges off l) = holes l.
Proof. induction l as [|[d|f rm] l IH]; intros off; cbn [ranges holes length]; auto. Qed.
Lemma ranges_bounds l : forall off r s e, nth_error (ranges off l) r = Some (s, e) ->
  off <= s /\ s <= e /\ e <= off + length (render l).
Proof.
  unfold render. induction l as [|[d|f rm] l IH]; intros off r s e H; cbn [ranges flat_map rend] in *.
  - destruct r; discriminate.
  - apply IH in H. rewrite app_length. lia.
  - rewrite !app_length. destruct r as [|j]; cbn [nth_error] in H; [inversion H; lia|apply IH in H; lia].
Qed.

(* what the implementation does with a range (put, set_nth) is what the log does with its hole (fill) *)
Lemma fill_at bs l : forall off r s e, nth_error (ranges off l) r = Some (s, e) ->
  if Nat.leb (length bs) (e - s)
  then exists l', fill l r bs = Some l' /\ render l' = put (render l) (s - off) bs /\
                  ranges off l' = set_nth (ranges off l) r (s + length bs, e)
  else fill l r bs = None.
Proof.
  unfold render. induction l as [|x l IH]; intros off r s e H; [destruct r; discriminate|].
  destruct x as [d|f rm]; [|destruct r as [|r]]; cbn [ranges nth_error fill flat_map rend] in *.
  2: { (* x is the r-th hole itself *) injection H as <- <-. rewrite !nat_add_sub_l.
    destruct (Nat.leb_spec (length bs) (length rm)) as [E|]; [|reflexivity].
    eexists; split; [reflexivity|]. cbn [flat_map rend ranges set_nth]. rewrite !app_length, skipn_length. split.
    - rewrite <- !app_assoc, put_prefix, skipn_app. replace (length bs - length rm) with 0 by lia. reflexivity.
    - f_equal; [f_equal; lia|]. f_equal. lia. }
  (* two goals are left, x a segment and x a hole before the r-th: either shifts everything by its length, by the same steps *)
  all: pose proof (ranges_bounds _ _ _ _ _ H) as (Hs & _).
  all: specialize (IH _ _ _ _ H).
  all: destruct (Nat.leb (length bs) (e - s)); [|rewrite IH; reflexivity].
  all: destruct IH as (l' & -> & Hrd & Hrg).
  all: eexists; split; [reflexivity|].
  all: cbn [flat_map rend ranges set_nth]; rewrite Hrd, Hrg, <- put_shift.
  (* what is left is that s - off is the same position counted from behind the prefix, which Hs says lies before s *)
  all: split; [f_equal; rewrite ?app_length; lia|reflexivity].
Qed.
Lemma fill_spec : forall l off r bs,
  match nth_error (ranges off l) r with
  | None => holes l <= r
  | Some (s, e) =>
      r < holes l /\ off <= s /\ s <= e /\ e <= off + length (render l) /\
      (if Nat.leb (length bs) (e - s)
       then exists l', fill l r bs = Some l' /\ render l' = put (render l) (s - off) bs /\
                       ranges off l' = set_nth (ranges off l) r (s + length bs, e)
       else fill l r bs = None)
  end.
Proof.
  intros l off r bs. rewrite <- (ranges_length l off). destruct (nth_error (ranges off l) r) as [[s e]|] eqn:E.
  - destruct (ranges_bounds _ _ _ _ _ E) as (H1 & H2 & H3).
    repeat split; [apply nth_error_Some; congruence|assumption..|apply fill_at, E].
  - apply nth_error_None, E.
Qed.

Lemma R_room t a : R t a -> length (buf t) - pos t = length (tail a).
Proof. intros (Hb & Hp & _). rewrite Hb, Hp, app_length. apply nat_add_sub_l. Qed.
Lemma R_pos_le t a : R t a -> pos t <= length (buf t).
Proof. intros (Hb & Hp & _). rewrite Hb, Hp, app_length. apply Nat.le_add_r. Qed.

Lemma write_at_refines t a bs : R t a ->
  let '(t', o1) := write_at t bs in let '(a', o2) := append a bs in o1 = o2 /\ R t' a'.
Proof.
  intros HR. pose proof HR as (Hb & Hp & Hr). unfold write_at, append. rewrite (R_room t a HR).
  destruct (Nat.leb (length bs) (length (tail a))); [|auto].
  split; [reflexivity|]. unfold R; cbn [buf pos res segs tail].
  rewrite render_snoc, ranges_app, app_length, <- app_assoc, Hb, Hp. cbn [rend ranges]. rewrite app_nil_r.
  split; [apply put_prefix|auto].
Qed.

Theorem bstep_refines t a o : R t a ->
  let '(t', o1) := bstep t o in let '(a', o2) := astep a o in o1 = o2 /\ R t' a'.
Proof.
  intros HR. pose proof HR as (Hb & Hp & Hr). destruct o as [b|bs|k|r bs]; cbn [bstep astep].
  - apply write_at_refines; exact HR.
  - apply write_at_refines; exact HR.
  - rewrite (R_room t a HR). destruct (Nat.leb_spec k (length (tail a))) as [L|]; [|auto].
    split; [reflexivity|]. unfold R; cbn [buf pos res segs tail].
    rewrite render_snoc, ranges_app, app_length, <- app_assoc, Hb, Hp, Hr. cbn [rend ranges length app Nat.add].
    rewrite firstn_skipn, firstn_length_le, Nat.add_0_r by exact L. auto.
  - pose proof (fill_spec (segs a) 0 r bs) as F. rewrite <- Hr in F.
    destruct (nth_error (res t) r) as [[s e]|]; [|rewrite (proj2 (Nat.ltb_ge _ _) F); auto].
    destruct F as (Hlt & _ & Hse & He & F). rewrite (proj2 (Nat.ltb_lt _ _) Hlt). rewrite Nat.sub_0_r in F.
    destruct (Nat.leb_spec (length bs) (e - s)) as [L|]; [|rewrite F; auto].
    destruct F as (l' & -> & Hrd & Hrg). split; [reflexivity|].
    assert (Hfit : s + length bs <= length (render (segs a))) by lia.
    unfold R; cbn [buf pos res segs tail]. rewrite Hrd, Hrg, Hb, Hr, put_length by exact Hfit.
    split; [apply put_left, Hfit|auto].
Qed.

Lemma init_R b : R (init b) (ainit b).
Proof. unfold R, init, ainit; cbn. auto. Qed.

(* `run`, `arun`, `vrun`, `varun` of Buffer.v are `runs` of their step functions *)
Section Runs.
  Context {S : Type} (step : S -> op -> S * out).
  Fixpoint runs (s : S) (ops : list op) : S * list out :=
    match ops with [] => (s, []) | o :: r => let '(s', x) := step s o in let '(s'', xs) := runs s' r in (s'', x :: xs) end.
End Runs.
Lemma runs_refine {S T} (step : S -> op -> S * out) (spec : T -> op -> T * out) (Rel : S -> T -> Prop) :
  (forall s a o, Rel s a -> let '(s', o1) := step s o in let '(a', o2) := spec a o in o1 = o2 /\ Rel s' a') ->
  forall ops s a, Rel s a ->
  snd (runs step s ops) = snd (runs spec a ops) /\ Rel (fst (runs step s ops)) (fst (runs spec a ops)).
Proof.
  intros Hstep. induction ops as [|o ops IH]; intros s a HR; cbn [runs]; [auto|].
  pose proof (Hstep s a o HR) as H.
  destruct (step s o) as [s' o1], (spec a o) as [a' o2]. destruct H as [-> HR'].
  specialize (IH s' a' HR'). destruct (runs step s' ops), (runs spec a' ops). cbn [fst snd] in *.
  destruct IH as [-> ?]. auto.
Qed.
Lemma run_runs t ops : run t ops = runs bstep t ops. Proof. reflexivity. Qed.
Lemma arun_runs a ops : arun a ops = runs astep a ops. Proof. reflexivity. Qed.
Lemma vrun_runs t ops : vrun t ops = runs vstep t ops. Proof. reflexivity. Qed.
Lemma varun_runs a ops : varun a ops = runs vastep a ops. Proof. reflexivity. Qed.
Theorem run_refines ops : forall t a, R t a ->
  snd (run t ops) = snd (arun a ops) /\ R (fst (run t ops)) (fst (arun a ops)).
Proof. intros t a. rewrite run_runs, arun_runs. exact (runs_refine bstep astep R bstep_refines ops t a). Qed.

Theorem failed_is_noop t o : snd (bstep t o) <> Done -> fst (bstep t o) = t.
Proof.
  destruct o as [b|bs|k|r bs]; cbn [bstep]; unfold write_at.
  1-3: destruct (Nat.leb _ _); cbn; congruence.
  destruct (nth_error _ _) as [[s e]|]; [|reflexivity]. destruct (Nat.leb _ _); cbn; congruence.
Qed.

Lemma write_at_len t bs : pos t <= length (buf t) -> length (buf (fst (write_at t bs))) = length (buf t).
Proof.
  intros Hle. unfold write_at. destruct (Nat.leb_spec (length bs) (length (buf t) - pos t)); cbn [fst buf]; auto.
  apply put_length. lia.
Qed.
Lemma bstep_len t a o : R t a -> length (buf (fst (bstep t o))) = length (buf t).
Proof.
  intros HR. pose proof (R_pos_le t a HR) as Hle. pose proof HR as (Hb & Hp & Hr).
  destruct o as [b|bs|k|r bs]; cbn [bstep]; auto using write_at_len.
  - destruct (Nat.leb k (length (buf t) - pos t)); reflexivity.
  - destruct (nth_error (res t) r) as [[s e]|] eqn:E; [|reflexivity]. rewrite Hr in E. apply ranges_bounds in E.
    destruct (Nat.leb_spec (length bs) (e - s)); cbn [fst buf]; auto.
    apply put_length. lia.
Qed.
(* the length of the buffer rides along in the simulation relation *)
Theorem never_past_end ops b : let t := fst (run (init b) ops) in length (buf t) = length b /\ pos t <= length b.
Proof.
  cbv zeta. rewrite run_runs.
  destruct (runs_refine bstep astep (fun t a => R t a /\ length (buf t) = length b)) with (ops := ops) (s := init b) (a := ainit b)
    as [_ [HR Hl]].
  - intros t a o [HR Hl]. pose proof (bstep_refines t a o HR) as H. rewrite <- (bstep_len t a o HR) in Hl.
    destruct (bstep t o), (astep a o). destruct H. auto.
  - split; [apply init_R|reflexivity].
  - split; [exact Hl|]. rewrite <- Hl. exact (R_pos_le _ _ HR).
Qed.

(* C12: a write into a reservation changes only bytes inside it and shrinks it from the front *)
Theorem reservation_confined t a r bs s e : R t a -> nth_error (res t) r = Some (s, e) ->
  snd (bstep t (WRes r bs)) = Done ->
  let t' := fst (bstep t (WRes r bs)) in
  s + length bs <= e /\ e <= pos t /\
  firstn s (buf t') = firstn s (buf t) /\ skipn (s + length bs) (buf t') = skipn (s + length bs) (buf t) /\
  firstn (length bs) (skipn s (buf t')) = bs /\ pos t' = pos t /\
  nth_error (res t') r = Some (s + length bs, e).
Proof.
  intros HR Hn. pose proof (R_pos_le t a HR) as Hle. destruct HR as (Hb & Hp & Hr). cbn [bstep]. rewrite Hn.
  pose proof Hn as Hn'. rewrite Hr in Hn'. apply ranges_bounds in Hn' as (_ & Hse & He). rewrite <- Hp in He.
  destruct (Nat.leb_spec (length bs) (e - s)); cbn [fst snd]; [|congruence]. intros _.
  cbn [buf pos res]. assert (Hfit : s + length bs <= length (buf t)) by lia.
  destruct (put_confined (buf t) s bs Hfit) as (H1 & H2 & H3).
  split; [lia|]. repeat split; auto. exact (nth_set_nth _ _ _ _ Hn).
Qed.

Lemma ranges_sorted l : forall off i j s1 e1 s2 e2, i < j ->
  nth_error (ranges off l) i = Some (s1, e1) -> nth_error (ranges off l) j = Some (s2, e2) -> e1 <= s2.
Proof.
  induction l as [|[d|f rm] l IH]; intros off i j s1 e1 s2 e2 Hij H1 H2; cbn [ranges] in *.
  - destruct i; discriminate.
  - eauto.
  - destruct j as [|j]; [inversion Hij|]. destruct i as [|i]; cbn [nth_error] in *.
    + injection H1 as <- <-. apply ranges_bounds in H2. apply H2.
    + apply Nat.succ_lt_mono in Hij. eauto.
Qed.
Theorem reservations_disjoint_and_below_pos t a : R t a ->
  forall i j s1 e1 s2 e2, i < j -> nth_error (res t) i = Some (s1, e1) -> nth_error (res t) j = Some (s2, e2) ->
  s1 <= e1 /\ e1 <= s2 /\ s2 <= e2 /\ e2 <= pos t.
Proof.
  intros (_ & Hp & Hr) i j s1 e1 s2 e2 Hij H1 H2. rewrite Hr in H1, H2. rewrite Hp.
  pose proof (ranges_sorted _ _ _ _ _ _ _ _ Hij H1 H2). apply ranges_bounds in H1, H2. tauto.
Qed.

Theorem vstep_refines t a o : Rv t a ->
  let '(t', o1) := vstep t o in let '(a', o2) := vastep a o in o1 = o2 /\ Rv t' a'.
Proof.
  intros (Hb & Hr). destruct o as [b|bs|k|r bs]; cbn [vstep vastep]; unfold Rv; cbn [vbytes vres].
  1-3: rewrite render_snoc, ranges_app, Hb, Hr; cbn [rend ranges length app Nat.add]; rewrite ?app_nil_r, ?repeat_length, ?Nat.add_0_r; auto.
  pose proof (fill_spec a 0 r bs) as F. rewrite <- Hr in F.
  destruct (nth_error (vres t) r) as [[s e]|]; [|rewrite (proj2 (Nat.ltb_ge _ _) F); auto].
  destruct F as (Hlt & _ & _ & _ & F). rewrite (proj2 (Nat.ltb_lt _ _) Hlt). rewrite Nat.sub_0_r in F.
  destruct (Nat.leb (length bs) (e - s)); [|rewrite F; auto].
  destruct F as (l' & -> & Hrd & Hrg). rewrite Hrd, Hrg, Hb, Hr. auto.
Qed.
Theorem vrun_refines ops : forall t a, Rv t a ->
  snd (vrun t ops) = snd (varun a ops) /\ Rv (fst (vrun t ops)) (fst (varun a ops)).
Proof. intros t a. rewrite vrun_runs, varun_runs. exact (runs_refine vstep vastep Rv vstep_refines ops t a). Qed.
Theorem vfailed_is_noop t o : snd (vstep t o) <> Done -> fst (vstep t o) = t.
Proof.
  destruct o as [b|bs|k|r bs]; cbn [vstep]; cbn; try congruence.
  destruct (nth_error _ _) as [[s e]|]; [|reflexivity]. destruct (Nat.leb _ _); cbn; congruence.
Qed.
(* a reservation in the growable target is zero-filled and appended *)
Theorem vec_reserve_zeroed t k : vbytes (fst (vstep t (Reserve k))) = vbytes t ++ repeat 0%N k
  /\ nth_error (vres (fst (vstep t (Reserve k)))) (length (vres t)) = Some (length (vbytes t), length (vbytes t) + k).
Proof. cbn. split; [reflexivity|]. rewrite nth_error_app2, Nat.sub_diag by apply Nat.le_refl. reflexivity. Qed.

Theorem reads_within s o bs : ipos s <= length (ibuf s) -> snd (rstep s o) = Bytes bs ->
  exists k, bs = firstn k (skipn (ipos s) (ibuf s)) /\ ipos s + k <= length (ibuf s) /\ length bs = k
            /\ ipos (fst (rstep s o)) <= length (ibuf s) /\ ibuf (fst (rstep s o)) = ibuf s.
Proof.
  intros Hwf. unfold rstep. set (k := match o with Peek1 | Read1 => 1 | PeekK k | ReadK k => k end).
  destruct (Nat.leb_spec k (length (ibuf s) - ipos s)); cbn [fst snd]; [|discriminate].
  intros E; inversion E; subst bs. exists k. rewrite firstn_length, skipn_length.
  assert (Hk : ipos s + k <= length (ibuf s)) by lia.
  split; [reflexivity|]. split; [exact Hk|]. split; [lia|]. destruct o; auto.
Qed.
Theorem peek_does_not_consume s : fst (rstep s Peek1) = s /\ forall k, fst (rstep s (PeekK k)) = s.
Proof. unfold rstep. split; [|intros k]; destruct (Nat.leb _ _); reflexivity. Qed.
Theorem read_failure_is_noop s o : snd (rstep s o) = REob -> fst (rstep s o) = s.
Proof. unfold rstep. destruct (Nat.leb _ _); cbn; [discriminate|reflexivity]. Qed.
