(* The reply decoder (C11, C18) never runs out of fuel, reads a non-empty prefix, and what it hands over is well-formed. *)
From Coq Require Import List NArith ZArith Bool.
From SliceV Require Import Base.Bytes Base.Utf8 Gen.VarintArms Codec.Wire Codec.WireProofs Codec.CollProofs Codec.DecodeProofs Codec.Reply.
Import ListNotations.
Open Scope N_scope.

Lemma genfile_consumes : consumes dec_generated_file.
Proof. unfold dec_generated_file. eauto 8 with dec. Qed.
Lemma genfile_nofuel : nofuel dec_generated_file.
Proof. unfold dec_generated_file. eauto with dec. Qed.
Lemma level_consumes : consumes dec_level.
Proof. unfold dec_level. eauto 8 with dec. Qed.
Lemma level_nofuel : nofuel dec_level.
Proof. unfold dec_level. eauto with dec. Qed.
#[export] Hint Resolve genfile_consumes genfile_nofuel level_consumes level_nofuel : dec.
Lemma diag_consumes : consumes dec_diagnostic.
Proof. unfold dec_diagnostic. eauto 12 with dec. Qed.
Lemma diag_nofuel : nofuel dec_diagnostic.
Proof. unfold dec_diagnostic. eauto 8 with dec. Qed.
#[export] Hint Resolve diag_consumes diag_nofuel : dec.
Lemma reply_consumes : consumes dec_reply.
Proof. unfold dec_reply. eauto 8 with dec. Qed.
Lemma reply_nofuel : nofuel dec_reply.
Proof. unfold dec_reply. eauto with dec. Qed.

(* C11, C18: the reply decoder is total and reads a prefix *)
Theorem reply_total_prefix : nofuel dec_reply /\
  forall bs v r, dec_reply bs = DOk v r -> exists pre, bs = pre ++ r /\ pre <> [].
Proof. exact (conj reply_nofuel reply_consumes). Qed.

Lemma dec_level_le bs v r : dec_level bs = DOk v r -> v <= 2.
Proof.
  unfold dec_level. intros H. apply dbind_ok in H as (x & r' & _ & H).
  destruct (N.leb_spec x 2); inversion H; subst; assumption.
Qed.
(* C11, C18: what the reply decoder hands over for writing is well-formed: valid UTF-8 paths and contents, levels in 0..2 *)
Theorem reply_files_wellformed bs fs ds r : dec_reply bs = DOk (fs, ds) r ->
  Forall (fun f => utf8_valid (gf_path f) = true /\ utf8_valid (gf_contents f) = true) fs /\
  Forall (fun d => gd_level d <= 2 /\ utf8_valid (gd_message d) = true) ds.
Proof.
  unfold dec_reply. intros H. apply dbind_ok in H as (fs' & r0 & E0 & H). apply dbind_ok in H as (ds' & r1 & E1 & H).
  inversion H; subst. split.
  - eapply dec_seq_all; [|exact E0]. intros b v r' Hd. unfold dec_generated_file in Hd.
    apply dbind_ok in Hd as (p & q & Ep & Hd). apply dbind_ok in Hd as (c & q1 & Ec & Hd). apply dbind_ok in Hd as (u & q2 & _ & Hd).
    inversion Hd; subst. split; eapply str_strict; eauto.
  - eapply dec_seq_all; [|exact E1]. intros b v r' Hd. unfold dec_diagnostic in Hd.
    apply dbind_ok in Hd as (hs & q & _ & Hd). apply dbind_ok in Hd as (lv & q0 & El & Hd). apply dbind_ok in Hd as (m & q1 & Em & Hd).
    apply dec_level_le in El. apply str_strict in Em. destruct hs.
    + apply dbind_ok in Hd as (s & q2 & _ & Hd). apply dbind_ok in Hd as (u & q3 & _ & Hd). inversion Hd; subst. auto.
    + apply dbind_ok in Hd as (u & q3 & _ & Hd). inversion Hd; subst. auto.
Qed.
