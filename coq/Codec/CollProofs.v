(* Round-trip proofs for strings, sequences and dictionaries (C10), generic in the element codec. *)
From Coq Require Import List NArith ZArith Lia Bool.
From SliceV Require Import Base.Bytes Base.Utf8 Gen.VarintArms Codec.Wire Codec.WireProofs.
Import ListNotations.
Open Scope N_scope.

Lemma dbind_ok {A B} (r : dres A) (k : A -> list byte -> dres B) v rest :
  dbind r k = DOk v rest -> exists a r1, r = DOk a r1 /\ k a r1 = DOk v rest.
Proof. destruct r; cbn [dbind]; [eauto|discriminate]. Qed.

Lemma take_n_exact n (bs : list byte) : take_n n bs = take_exact (N.to_nat n) bs.
Proof.
  unfold take_n, take_exact.
  destruct (N.leb_spec n (N.of_nat (length bs))), (Nat.leb_spec (N.to_nat n) (length bs)); auto; lia.
Qed.
Lemma take_n_app (s r : list byte) : take_n (N.of_nat (length s)) (s ++ r) = Some (s, r).
Proof. rewrite take_n_exact. apply take_exact_app. symmetry. apply Nnat.Nat2N.id. Qed.
Lemma take_n_split n bs s r : take_n n bs = Some (s, r) -> bs = s ++ r /\ N.of_nat (length s) = n.
Proof. rewrite take_n_exact. intros H. apply take_exact_split in H as [-> ->]. split; [reflexivity|apply Nnat.N2Nat.id]. Qed.
Lemma take_n_ext n (l h r x : list byte) : take_n n l = Some (h, r) -> take_n n (l ++ x) = Some (h, r ++ x).
Proof. rewrite !take_n_exact. apply take_exact_ext. Qed.

Theorem str_roundtrip s rest : utf8_valid s = true -> N.of_nat (length s) < 2 ^ 62 ->
  exists bs, enc_str s = Some bs /\ dec_str (bs ++ rest) = DOk s rest.
Proof.
  intros Hv Hl. unfold enc_str, enc_size.
  destruct (varuint_roundtrip (N.of_nat (length s)) (s ++ rest) Hl) as (h & Hh & Hd).
  rewrite Hh. eexists; split; [reflexivity|].
  unfold dec_str, dec_size. rewrite <- app_assoc, Hd. cbn [dbind].
  rewrite take_n_app, Hv. reflexivity.
Qed.
Theorem str_strict bs s rest : dec_str bs = DOk s rest -> utf8_valid s = true.
Proof.
  unfold dec_str. intros H. apply dbind_ok in H as (n & r & _ & H).
  destruct (take_n n r) as [[s' r']|]; [|discriminate].
  destruct (utf8_valid s') eqn:E; [|discriminate]. inversion H; subst; exact E.
Qed.

Lemma width_nonempty (b : list byte) : (length b = 1 \/ length b = 2 \/ length b = 4 \/ length b = 8)%nat -> b <> [].
Proof. intros H ->. cbn in H. lia. Qed.
Lemma varuint_nonempty v h (bs : list byte) : enc_varuint v = Some h -> h ++ bs <> [].
Proof. intros Hh E. apply app_eq_nil in E as [E _]. exact (width_nonempty _ (varuint_length _ _ Hh) E). Qed.

Lemma enc_str_nonempty s bs : enc_str s = Some bs -> bs <> [].
Proof. unfold enc_str. destruct (enc_size _) as [h|] eqn:E; intros [= <-]. exact (varuint_nonempty _ _ _ E). Qed.

Lemma of_nat_S n : (N.of_nat (S n) =? 0) = false /\ N.of_nat (S n) - 1 = N.of_nat n.
Proof. rewrite Nnat.Nat2N.inj_succ, N.sub_1_r, N.pred_succ. split; [apply N.eqb_neq, N.neq_succ_0|reflexivity]. Qed.

(* an element codec that round-trips and writes something, as the loops below need it in one hypothesis *)
Lemma roundtrip_nonempty {A} (enc_e : A -> option (list byte)) (dec_e : list byte -> dres A) (P : A -> Prop) :
  (forall x rest, P x -> exists b, enc_e x = Some b /\ dec_e (b ++ rest) = DOk x rest) -> (forall x b, enc_e x = Some b -> b <> []) ->
  forall x rest, P x -> exists b, enc_e x = Some b /\ b <> [] /\ dec_e (b ++ rest) = DOk x rest.
Proof. intros Hrt Hne x rest Hx. destruct (Hrt x rest Hx) as (b & Hb & Hd). exists b. exact (conj Hb (conj (Hne x b Hb) Hd)). Qed.

Section Seq.
  Context {A : Type} (enc_e : A -> option (list byte)) (dec_e : list byte -> dres A) (P : A -> Prop).
  Hypothesis Hrt : forall x rest, P x -> exists b, enc_e x = Some b /\ b <> [] /\ dec_e (b ++ rest) = DOk x rest.

  (* every element takes at least one byte, so any fuel from the number of elements on suffices *)
  Lemma items_roundtrip l rest : Forall P l ->
    exists bs, enc_items enc_e l = Some bs /\ (length l <= length bs)%nat /\
      forall fuel, (length l <= fuel)%nat -> dec_items dec_e fuel (N.of_nat (length l)) (bs ++ rest) = DOk l rest.
  Proof.
    induction 1 as [|x l Hx _ (bs & Hbs & Hlen & Hd)].
    - exists []. repeat split; auto. intros [|f] _; reflexivity.
    - destruct (Hrt x (bs ++ rest) Hx) as (b & Hb & Hne & Hdb).
      exists (b ++ bs). cbn [enc_items length]. rewrite Hb, Hbs, app_length. split; [reflexivity|].
      split; [destruct b; [congruence|cbn [length]; lia]|].
      intros [|f] Hf; [inversion Hf|]. cbn [dec_items]. destruct (of_nat_S (length l)) as [-> ->].
      rewrite <- app_assoc, Hdb. cbn [dbind]. rewrite Hd by exact (le_S_n _ _ Hf). reflexivity.
  Qed.

  Lemma seq_roundtrip_ne l rest : Forall P l -> N.of_nat (length l) < 2 ^ 62 ->
    exists bs, enc_seq enc_e l = Some bs /\ bs <> [] /\ dec_seq dec_e (bs ++ rest) = DOk l rest.
  Proof.
    intros HP Hl. destruct (items_roundtrip l rest HP) as (bs & Hbs & Hlen & Hd).
    destruct (varuint_roundtrip (N.of_nat (length l)) (bs ++ rest) Hl) as (h & Hh & Hdh).
    exists (h ++ bs). unfold enc_seq, enc_size, dec_seq, dec_size. rewrite Hh, Hbs, <- app_assoc, Hdh. cbn [dbind].
    split; [reflexivity|]. split; [exact (varuint_nonempty _ _ _ Hh)|]. apply Hd. rewrite app_length. lia.
  Qed.
End Seq.

Section SeqProofs.
  Context {A : Type} (enc_e : A -> option (list byte)) (dec_e : list byte -> dres A) (P : A -> Prop).
  Hypothesis Hrt : forall x rest, P x -> exists b, enc_e x = Some b /\ dec_e (b ++ rest) = DOk x rest.
  Hypothesis Hne : forall x b, enc_e x = Some b -> b <> [].

  Theorem seq_roundtrip l rest : Forall P l -> N.of_nat (length l) < 2 ^ 62 ->
    exists bs, enc_seq enc_e l = Some bs /\ dec_seq dec_e (bs ++ rest) = DOk l rest.
  Proof.
    intros HP Hl. destruct (seq_roundtrip_ne enc_e dec_e P (roundtrip_nonempty enc_e dec_e P Hrt Hne) l rest HP Hl) as (bs & Hbs & _ & Hd).
    exists bs. exact (conj Hbs Hd).
  Qed.
End SeqProofs.

(* a dictionary is decoded as the sequence of its pairs, stopping at the first key seen before *)
Section Dict.
  Context {K V : Type} (keq : K -> K -> bool) (dec_k : list byte -> dres K) (dec_v : list byte -> dres V).

  Fixpoint distinct_from (acc l : list (K * V)) : bool :=
    match l with [] => true | kv :: l' => negb (has_key keq (fst kv) acc) && distinct_from (kv :: acc) l' end.

  Lemma dec_entries_items f : forall n acc bs,
    match dec_items (dec_pair dec_k dec_v) f n bs with
    | DOk l r => dec_entries keq dec_k dec_v f n acc bs = if distinct_from acc l then DOk (rev acc ++ l) r else DErr EDupKey
    | DErr e => dec_entries keq dec_k dec_v f n acc bs = DErr e \/ dec_entries keq dec_k dec_v f n acc bs = DErr EDupKey
    end.
  Proof.
    assert (Hstop : forall acc bs, DOk (rev acc) bs = if distinct_from acc [] then DOk (rev acc ++ []) bs else DErr EDupKey)
      by (intros; cbn [distinct_from]; rewrite app_nil_r; reflexivity).
    induction f as [|f IH]; intros n acc bs; cbn [dec_items dec_entries]; (destruct (n =? 0); [apply Hstop|]).
    - left. reflexivity.
    - destruct (dec_pair dec_k dec_v bs) as [kv r1|e]; cbn [dbind]; [|left; reflexivity].
      specialize (IH (n - 1) (kv :: acc) r1).
      destruct (dec_items (dec_pair dec_k dec_v) f (n - 1) r1) as [xs r2|e]; cbn [dbind distinct_from];
        destruct (has_key keq (fst kv) acc); cbn [negb andb].
      + (* a repeated key, the rest decodes *) reflexivity.
      + rewrite IH. cbn [rev]. rewrite <- app_assoc. reflexivity.
      + (* a repeated key, the rest fails *) right. reflexivity.
      + exact IH.
  Qed.

  Lemma dec_dict_seq bs :
    match dec_seq (dec_pair dec_k dec_v) bs with
    | DOk l r => dec_dict keq dec_k dec_v bs = if distinct_from [] l then DOk l r else DErr EDupKey
    | DErr e => dec_dict keq dec_k dec_v bs = DErr e \/ dec_dict keq dec_k dec_v bs = DErr EDupKey
    end.
  Proof.
    unfold dec_seq, dec_dict. destruct (dec_size bs) as [n r|e]; cbn [dbind]; auto.
    apply (dec_entries_items (S (length r)) n [] r).
  Qed.

  Lemma dec_dict_ok bs l r : dec_dict keq dec_k dec_v bs = DOk l r <->
    dec_seq (dec_pair dec_k dec_v) bs = DOk l r /\ distinct_from [] l = true.
  Proof.
    pose proof (dec_dict_seq bs) as H. destruct (dec_seq (dec_pair dec_k dec_v) bs) as [l' r'|e].
    - rewrite H. destruct (distinct_from [] l') eqn:D.
      + split; [intros E; inversion E; subst; auto|intros [E _]; exact E].
      + split; [discriminate|intros [E D']; inversion E; subst; congruence].
    - split; [intros E; destruct H; congruence|intros [E _]; discriminate].
  Qed.

  Lemma dec_dict_fuel bs : dec_dict keq dec_k dec_v bs = DErr EFuel -> dec_seq (dec_pair dec_k dec_v) bs = DErr EFuel.
  Proof.
    intros E. pose proof (dec_dict_seq bs) as H.
    destruct (dec_seq (dec_pair dec_k dec_v) bs) as [l r|e]; [destruct (distinct_from [] l)|destruct H]; congruence.
  Qed.

  Lemma has_key_true k (acc : list (K * V)) : (forall a, keq a a = true) -> In k (map fst acc) -> has_key keq k acc = true.
  Proof.
    intros keq_refl H. apply in_map_iff in H as (kv & <- & Hin). unfold has_key. apply existsb_exists.
    exists kv. split; auto.
  Qed.
  Lemma distinct_NoDup : (forall a, keq a a = true) ->
    forall l acc, distinct_from acc l = true -> NoDup (map fst acc) -> NoDup (map fst (rev acc ++ l)).
  Proof.
    intros keq_refl. induction l as [|kv l IH]; intros acc Hd Hnd.
    - rewrite app_nil_r, map_rev. apply NoDup_rev, Hnd.
    - cbn [distinct_from] in Hd. apply andb_true_iff in Hd as [Hk Hd].
      replace (rev acc ++ kv :: l) with (rev (kv :: acc) ++ l) by (cbn [rev]; rewrite <- app_assoc; reflexivity).
      apply IH; [exact Hd|]. cbn [map]. constructor; [|exact Hnd].
      intros Hin. rewrite (has_key_true _ _ keq_refl Hin) in Hk. discriminate.
  Qed.
End Dict.

Section DictRoundtrip.
  Context {K V : Type} (keq : K -> K -> bool).
  Context (enc_k : K -> option (list byte)) (dec_k : list byte -> dres K).
  Context (enc_v : V -> option (list byte)) (dec_v : list byte -> dres V).
  Context (PK : K -> Prop) (PV : V -> Prop).
  Hypothesis keq_eq : forall a b, PK a -> PK b -> keq a b = true -> a = b.
  Hypothesis Hk : forall x rest, PK x -> exists b, enc_k x = Some b /\ b <> [] /\ dec_k (b ++ rest) = DOk x rest.
  Hypothesis Hv : forall x rest, PV x -> exists b, enc_v x = Some b /\ dec_v (b ++ rest) = DOk x rest.
  (* Ppair of the next section, which has it as a definition over its own PK and PV *)
  Local Notation PKV := (fun kv : K * V => PK (fst kv) /\ PV (snd kv)).

  Lemma pair_roundtrip kv rest : PKV kv ->
    exists b, enc_pair enc_k enc_v kv = Some b /\ b <> [] /\ dec_pair dec_k dec_v (b ++ rest) = DOk kv rest.
  Proof.
    intros [Hpk Hpv]. destruct kv as [k v]. cbn [fst snd] in *.
    destruct (Hv v rest Hpv) as (bv & Hbv & Hdv).
    destruct (Hk k (bv ++ rest) Hpk) as (bk & Hbk & Hne & Hdk).
    exists (bk ++ bv). unfold enc_pair, dec_pair. cbn [fst snd]. rewrite Hbk, Hbv, <- app_assoc, Hdk. cbn [dbind]. rewrite Hdv.
    split; [reflexivity|]. split; [|reflexivity]. intros E. apply app_eq_nil in E as [E _]. exact (Hne E).
  Qed.

  Lemma has_key_false k (acc : list (K * V)) : PK k -> Forall PKV acc ->
    ~ In k (map fst acc) -> has_key keq k acc = false.
  Proof.
    intros Hpk Hacc H. unfold has_key. apply not_true_is_false. intros E. apply existsb_exists in E as (kv & Hin & Heq).
    apply keq_eq in Heq; [|exact Hpk|]. { subst k. apply H. apply in_map. exact Hin. }
    rewrite Forall_forall in Hacc. apply Hacc in Hin. apply Hin.
  Qed.
  Lemma NoDup_distinct : forall l acc, Forall PKV l -> Forall PKV acc -> NoDup (map fst (rev acc ++ l)) -> distinct_from keq acc l = true.
  Proof.
    induction l as [|kv l IH]; intros acc Hl Hacc Hnd; [reflexivity|]. inversion Hl as [|? ? Hkv Hl']; subst.
    cbn [distinct_from]. rewrite has_key_false; [|apply Hkv|exact Hacc|].
    - apply IH; [exact Hl'|constructor; assumption|]. cbn [rev]. rewrite <- app_assoc. exact Hnd.
    - rewrite map_app in Hnd. apply NoDup_remove_2 in Hnd. intros Hin. apply Hnd.
      apply in_or_app. left. rewrite map_rev. apply -> in_rev. exact Hin.
  Qed.

  Lemma dict_roundtrip_ne l rest : Forall PKV l -> NoDup (map fst l) -> N.of_nat (length l) < 2 ^ 62 ->
    exists bs, enc_dict enc_k enc_v l = Some bs /\ bs <> [] /\ dec_dict keq dec_k dec_v (bs ++ rest) = DOk l rest.
  Proof.
    intros HP Hnd Hl.
    destruct (seq_roundtrip_ne _ _ PKV pair_roundtrip l rest HP Hl) as (bs & Hbs & Hne & Hd).
    exists bs. split; [exact Hbs|]. split; [exact Hne|]. apply dec_dict_ok. split; [exact Hd|].
    apply NoDup_distinct; auto.
  Qed.
End DictRoundtrip.

Section DictProofs.
  Context {K V : Type} (keq : K -> K -> bool).
  Context (enc_k : K -> option (list byte)) (dec_k : list byte -> dres K).
  Context (enc_v : V -> option (list byte)) (dec_v : list byte -> dres V).
  Context (PK : K -> Prop) (PV : V -> Prop).
  Hypothesis keq_refl : forall a, keq a a = true.
  Hypothesis keq_eq : forall a b, PK a -> PK b -> keq a b = true -> a = b.
  Hypothesis Hk : forall x rest, PK x -> exists b, enc_k x = Some b /\ dec_k (b ++ rest) = DOk x rest.
  Hypothesis Hv : forall x rest, PV x -> exists b, enc_v x = Some b /\ dec_v (b ++ rest) = DOk x rest.
  Hypothesis Hkne : forall x b, enc_k x = Some b -> b <> [].

  Definition Ppair (kv : K * V) : Prop := PK (fst kv) /\ PV (snd kv).

  (* dictionaries as duplicate-free association lists, in wire order *)
  Theorem dict_roundtrip l rest : Forall Ppair l -> NoDup (map fst l) -> N.of_nat (length l) < 2 ^ 62 ->
    exists bs, enc_dict enc_k enc_v l = Some bs /\ dec_dict keq dec_k dec_v (bs ++ rest) = DOk l rest.
  Proof.
    intros HP Hnd Hl.
    destruct (dict_roundtrip_ne keq enc_k dec_k enc_v dec_v PK PV keq_eq (roundtrip_nonempty enc_k dec_k PK Hk Hkne) Hv l rest HP Hnd Hl) as (bs & Hbs & _ & Hd).
    exists bs. exact (conj Hbs Hd).
  Qed.

  (* C11: duplicate keys are rejected *)
  Theorem dict_keys_unique bs l rest : dec_dict keq dec_k dec_v bs = DOk l rest -> NoDup (map fst l).
  Proof. intros H. apply dec_dict_ok in H as [_ H]. apply (distinct_NoDup keq keq_refl l [] H). constructor. Qed.
End DictProofs.
